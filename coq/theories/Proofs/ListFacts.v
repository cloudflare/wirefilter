(* Facts about firstn, skipn, nth_error and Forall that the standard library does not state. *)
From Coq Require Import List Arith.
Import ListNotations.

Lemma firstn_app_exact {A} (p q : list A) : firstn (length p) (p ++ q) = p.
Proof. rewrite firstn_app, firstn_all, Nat.sub_diag. apply app_nil_r. Qed.

Lemma firstn_S_nth {A} (l : list A) k x : nth_error l k = Some x -> firstn (S k) l = firstn k l ++ [x].
Proof.
  revert k. induction l as [|y l IH]; intros k H; [destruct k; discriminate|].
  destruct k; cbn in *; [now injection H as ->|]. f_equal. auto.
Qed.

Lemma skipn_nth {A} (l : list A) : forall i x, nth_error l i = Some x -> skipn i l = x :: skipn (S i) l.
Proof.
  induction l as [|y r IH]; intros [|i] x Hx; cbn in Hx; try discriminate.
  - now injection Hx as ->.
  - cbn [skipn]. now apply IH.
Qed.

Lemma Forall_cut {A} (P : A -> Prop) n l : Forall P l -> Forall P (firstn n l) /\ Forall P (skipn n l).
Proof. intros H. now rewrite <- (firstn_skipn n l), Forall_app in H. Qed.

Lemma nth_error_ext {A} : forall (l1 l2 : list A), (forall i, nth_error l1 i = nth_error l2 i) -> l1 = l2.
Proof.
  induction l1 as [|x l1 IH]; intros [|y l2] H; try (now specialize (H 0)).
  injection (H 0) as <-. f_equal. apply IH. intros i. exact (H (S i)).
Qed.

(* the positions beyond the common length hold nothing on either side *)
Lemma nth_error_ext_len {A} (l1 l2 : list A) :
  length l1 = length l2 -> (forall n, n < length l1 -> nth_error l1 n = nth_error l2 n) -> l1 = l2.
Proof.
  intros Hlen H. apply nth_error_ext. intros i. destruct (Nat.lt_ge_cases i (length l1)) as [Hi|Hi]; [now apply H|].
  rewrite (proj2 (nth_error_None l1 i) Hi). symmetry. apply nth_error_None. now rewrite <- Hlen.
Qed.

Lemma nth_error_nth_map {A B} (g : A -> B) x : forall l f,
  match nth_error l f with Some d => g d | None => x end = nth f (map g l) x.
Proof. induction l as [|d l IH]; intros [|f]; cbn; auto. Qed.

(* positions of a list without repeated images are told apart by the image *)
Lemma NoDup_map_nth {A B} (g : A -> B) (l : list A) i j a b :
  NoDup (map g l) -> nth_error l i = Some a -> nth_error l j = Some b -> g a = g b -> i = j.
Proof.
  intros Hnd Hi Hj Hg. apply (proj1 (NoDup_nth_error _) Hnd).
  - rewrite map_length. apply nth_error_Some. congruence.
  - now rewrite (map_nth_error g _ _ Hi), (map_nth_error g _ _ Hj), Hg.
Qed.

Lemma nth_error_seq' N a n : n < N -> nth_error (seq a N) n = Some (a + n).
Proof. intros H. rewrite (nth_error_nth' _ 0) by now rewrite seq_length. now rewrite seq_nth. Qed.

Lemma nth_error_app_old {A} (l l' : list A) i y : nth_error l i = Some y -> nth_error (l ++ l') i = Some y.
Proof. intros H. rewrite nth_error_app1; [exact H|]. apply nth_error_Some. congruence. Qed.

Lemma nth_error_app_new {A} (l l' : list A) x : nth_error (l ++ x :: l') (length l) = Some x.
Proof. now rewrite nth_error_app2, Nat.sub_diag. Qed.

Lemma nth_error_snoc {A} (l : list A) x i y :
  nth_error (l ++ [x]) i = Some y <-> nth_error l i = Some y \/ (i = length l /\ y = x).
Proof.
  split.
  - intros H. destruct (Nat.lt_ge_cases i (length l)) as [Hlt|Hge].
    + left. now rewrite nth_error_app1 in H.
    + right. rewrite nth_error_app2 in H by exact Hge.
      destruct (i - length l) as [|[|d]] eqn:E; [|discriminate..]. injection H as <-. split; [|reflexivity].
      apply Nat.le_antisymm; [now apply Nat.sub_0_le|exact Hge].
  - intros [H|[-> ->]]; [now apply nth_error_app_old|apply nth_error_app_new].
Qed.
