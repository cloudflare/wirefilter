(* Closed statements about parse_filter / parse_value / ParseError::new (its
   model is in Run/Lang.v), and what str::trim does to white space, three bytes
   at a time ([step3], [ws3]), which Proofs/LayoutProofs.v builds on. *)
From Coq Require Import List NArith Bool Lia Arith.
From WF Require Import Base.Bytes Lang.Ast Spec.Typing Spec.C13 Parse.Lex Parse.Parser
     Proofs.ListFacts Proofs.TypingProofs Proofs.ParserProofs Proofs.LexFacts Run.Lang.
Import ListNotations.
Local Notation length := List.length (only parsing).

(* what a parse result must satisfy: an accepted AST meets [P] and the whole
   (trimmed) input was consumed; an error span lies inside the trimmed input;
   no panic *)
Definition parse_post {A} (text : bytes) (P : A -> Prop) (r : lres A) : Prop :=
  match r with
  | LOk a rest => P a /\ rest = []
  | LErr _ at_ n => suffix at_ (trim text) /\ (n <= length at_)%nat
  | LPanic => False
  | LFuel => True
  end.

Lemma complete_post {A} text (P : A -> Prop) r : lpost (trim text) P r -> parse_post text P (complete r).
Proof.
  destruct r as [a [|b rest]|k at_ n| |]; cbn; auto.
  - intros [H1 H2]. auto.
  - intros [H1 H2]. split; [assumption|lia].
Qed.

Theorem parse_filter_post sch st text :
  parse_post text (fun e => wt_filter sch e = true /\ (depth_lexpr e <= N.to_nat (st_max_depth st))%nat)
             (parse_filter sch st text).
Proof.
  unfold parse_filter. apply complete_post.
  eapply lpost_bind.
  { apply (ih_logical sch st (trim text) _ (parser_post sch st (trim text) lexers_ok _)); [lia|apply suffix_refl]. }
  intros e rest [[t Ht] Hd] Hr. rewrite (wt_ty_lexpr sch e t Ht).
  destruct t; cbn; try (split; [assumption|lia]).
  split; [|assumption]. split; [unfold wt_filter; now rewrite Ht|].
  change (N.to_nat 0) with 0%nat in Hd. lia.
Qed.

Theorem parse_value_post sch st text :
  parse_post text (fun e => (exists t, wt_value sch e = Some t) /\ (depth_iexpr e <= N.to_nat (st_max_depth st))%nat)
             (parse_value sch st text).
Proof.
  unfold parse_value. apply complete_post.
  eapply lpost_bind.
  { apply (ih_index sch st (trim text) _ (parser_post sch st (trim text) lexers_ok _)); [lia|apply suffix_refl]. }
  intros e rest [[t Ht] Hd] Hr.
  destruct (Nat.ltb 0 (map_each_count (iexpr_idx e))) eqn:Em; cbn.
  - split; [apply suffix_refl|lia].
  - split; [|assumption]. split.
    + exists t. unfold wt_value. rewrite Ht. apply Nat.ltb_ge in Em.
      assert (E0 : map_each_count (iexpr_idx e) = 0%nat) by lia. rewrite E0. reflexivity.
    + change (N.to_nat 0) with 0%nat in Hd. lia.
Qed.

(* [ws_prefix] and [ws_suffix_rev] are one function, up to the order in which they read the bytes of a
   character: a test on the first byte, else on the first two, else on the first three *)
Definition step3 (t2 : N -> N -> bool) (t3 : N -> N -> N -> bool) (x : bytes) : option bytes :=
  match x with
  | b :: r =>
      if is_ws_ascii b then Some r
      else match r with
           | c :: r2 =>
               if t2 b c then Some r2
               else match r2 with
                    | d :: r3 => if t3 b c d then Some r3 else None
                    | [] => None
                    end
           | [] => None
           end
  | [] => None
  end.

(* the three-byte white-space characters: U+1680, U+2000..U+200A / U+2028 / U+2029 / U+202F, U+205F, U+3000 *)
Definition ws3 (b c d : N) : bool :=
  ((b =? 225) && (c =? 154) && (d =? 128)
   || (b =? 226) && (c =? 128) && (((128 <=? d) && (d <=? 138)) || (d =? 168) || (d =? 169) || (d =? 175))
   || (b =? 226) && (c =? 129) && (d =? 159)
   || (b =? 227) && (c =? 128) && (d =? 128))%N.

Lemma ws_prefix_step3 x :
  ws_prefix x = step3 (fun b c => (b =? 194) && ((c =? 133) || (c =? 160)))%N ws3 x.
Proof.
  destruct x as [|b [|c [|d r]]]; try reflexivity. unfold ws_prefix, step3, ws3.
  repeat match goal with |- (if ?c then _ else _) = _ => destruct c end; reflexivity.
Qed.

Lemma ws_suffix_rev_step3 x :
  ws_suffix_rev x = step3 (fun d c => (c =? 194) && ((d =? 133) || (d =? 160)))%N (fun d c b => ws3 b c d) x.
Proof.
  destruct x as [|b [|c [|d r]]]; try reflexivity. unfold ws_suffix_rev, step3, ws3.
  repeat match goal with |- (if ?c then _ else _) = _ => destruct c end; reflexivity.
Qed.

Lemma step3_suffix t2 t3 x r : step3 t2 t3 x = Some r -> suffix r x.
Proof.
  destruct x as [|b [|c [|d r3]]]; cbn [step3]; try discriminate;
    repeat match goal with |- (if ?c then _ else _) = _ -> _ => destruct c end;
    intros H; try discriminate H; injection H as <-;
    solve [apply suffix_cons | now eexists [_; _] | now eexists [_; _; _]].
Qed.

Lemma ws_prefix_suffix x r : ws_prefix x = Some r -> suffix r x.
Proof. rewrite ws_prefix_step3. apply step3_suffix. Qed.

Lemma ws_suffix_rev_suffix x r : ws_suffix_rev x = Some r -> suffix r x.
Proof. rewrite ws_suffix_rev_step3. apply step3_suffix. Qed.

Lemma drop_while_some_suffix step :
  (forall x r, step x = Some r -> suffix r x) ->
  forall fuel x, suffix (drop_while_some step fuel x) x.
Proof.
  intros Hs. induction fuel as [|f IH]; intros x; cbn [drop_while_some]; [apply suffix_refl|].
  destruct (step x) as [r|] eqn:E; [|apply suffix_refl].
  eapply suffix_trans; [apply IH|apply Hs; exact E].
Qed.

Lemma trim_start_suffix x : suffix (trim_start x) x.
Proof. unfold trim_start. apply drop_while_some_suffix. exact ws_prefix_suffix. Qed.

Lemma trim_infix text : exists a b, text = a ++ trim text ++ b.
Proof.
  unfold trim. destruct (trim_start_suffix text) as [a Ha].
  destruct (drop_while_some_suffix ws_suffix_rev ws_suffix_rev_suffix
              (List.length (trim_start text)) (rev (trim_start text))) as [b Hb].
  exists a, (rev b).
  assert (E : trim_start text =
              rev (drop_while_some ws_suffix_rev (List.length (trim_start text)) (rev (trim_start text))) ++ rev b).
  { rewrite <- rev_app_distr, <- Hb. now rewrite rev_involutive. }
  cbv zeta. rewrite <- E. exact Ha.
Qed.

Definition nl_free (l : bytes) : Prop := Forall (fun b => b <> 10%N) l.
Definition count_nl (l : bytes) : nat := length (filter (N.eqb 10) l).

Lemma lls_spec l : forall pos upto line start, (upto <= length l)%nat ->
  exists k, (k <= upto)%nat /\
    last_line_start l pos upto line start =
      ((line + count_nl (firstn upto l))%nat, if Nat.eqb k 0 then start else (pos + k)%nat) /\
    nl_free (skipn k (firstn upto l)) /\
    (0 < k -> nth_error l (k - 1) = Some 10%N)%nat.
Proof.
  induction l as [|b r IH]; intros pos upto line start Hu.
  - cbn in Hu. assert (upto = 0%nat) by lia. subst. exists 0%nat. cbn.
    split; [lia|]. split; [f_equal; lia|]. split; [constructor|lia].
  - destruct upto as [|u].
    + exists 0%nat. cbn. split; [lia|]. split; [f_equal; lia|]. split; [constructor|lia].
    + cbn [length] in Hu. cbn [last_line_start firstn].
      replace (count_nl (b :: firstn u r)) with ((if (b =? 10)%N then 1 else 0) + count_nl (firstn u r))%nat
        by (unfold count_nl; cbn [filter]; rewrite (N.eqb_sym 10 b); now destruct (b =? 10)%N).
      destruct (N.eqb_spec b 10) as [->|Hb];
        [destruct (IH (S pos) u (S line) (S pos) ltac:(lia)) as (k & Hk & -> & Hfree & Hnth)
        |destruct (IH (S pos) u line start ltac:(lia)) as (k & Hk & -> & Hfree & Hnth)];
        destruct k as [|k'].
      (* a newline found further on is the last one, whatever [b] is *)
      2,4: exists (S (S k')); cbn [Nat.eqb skipn]; split; [lia|]; split; [f_equal; lia|]; split; [exact Hfree|];
        intros _; replace (S (S k') - 1)%nat with (S (S k' - 1)) by lia; apply Hnth; lia.
      * exists 1%nat. cbn [Nat.eqb skipn]. split; [lia|]. split; [f_equal; lia|]. split; [exact Hfree|].
        intros _. reflexivity.
      * exists 0%nat. cbn [Nat.eqb skipn]. split; [lia|]. split; [reflexivity|]. split; [|lia].
        constructor; assumption.
Qed.

Lemma find_nl_spec l : forall i,
  match find_nl l i with
  | Some j => (i <= j)%nat /\ nl_free (firstn (j - i) l) /\ exists q, skipn (j - i) l = 10%N :: q
  | None => nl_free l
  end.
Proof.
  induction l as [|b r IH]; intros i; cbn [find_nl]; [constructor|].
  destruct (N.eqb_spec b 10) as [->|Hb].
  - rewrite Nat.sub_diag. cbn. split; [lia|]. split; [constructor|eauto].
  - specialize (IH (S i)). destruct (find_nl r (S i)) as [j|].
    + destruct IH as (H1 & H2 & q & H3). split; [lia|]. replace (j - i)%nat with (S (j - S i)) by lia.
      cbn. split; [constructor; assumption|eauto].
    + constructor; assumption.
Qed.

Lemma count_nl_app a b : count_nl (a ++ b) = (count_nl a + count_nl b)%nat.
Proof. unfold count_nl. now rewrite filter_app, app_length. Qed.

Lemma count_nl_free l : nl_free l -> count_nl l = 0%nat.
Proof.
  unfold count_nl. induction 1 as [|b l Hb _ IH]; [reflexivity|]. cbn [filter].
  destruct (N.eqb_spec 10 b); [congruence|exact IH].
Qed.

Lemma nl_free_app_first a b j q :
  nl_free a -> skipn j (a ++ b) = 10%N :: q -> (length a <= j)%nat.
Proof.
  intros Ha Hq. destruct (Nat.le_gt_cases (length a) j) as [|Hlt]; [assumption|exfalso].
  rewrite skipn_app in Hq. replace (j - length a)%nat with 0%nat in Hq by lia. cbn in Hq.
  assert (Hin : In 10%N a).
  { rewrite <- (firstn_skipn j a). apply in_or_app. right.
    destruct (skipn j a) as [|x t] eqn:E.
    - exfalso. apply (f_equal (@List.length N)) in E. rewrite skipn_length in E. cbn in E. lia.
    - cbn in Hq. injection Hq as -> _. now left. }
  unfold nl_free in Ha. rewrite Forall_forall in Ha. now apply (Ha _ Hin).
Qed.

(* ParseError::new: the reported line is a line of the input and the column
   range lies inside it; the usize subtraction line_end - span_start cannot
   underflow *)
Theorem parse_error_new_spec orig abs len :
  (abs + len <= length orig)%nat ->
  let '(line, col, len') := parse_error_new orig abs len in
  exists pre l post,
    orig = pre ++ l ++ post /\
    (pre = [] \/ exists p, pre = p ++ [10%N]) /\
    (post = [] \/ exists q, post = 10%N :: q) /\
    nl_free l /\ line = count_nl pre /\
    (col + len' <= length l)%nat /\ (len' <= len)%nat /\
    match find_nl (skipn (length pre) orig) 0 with Some e => (col <= e)%nat | None => True end.
Proof.
  intros Hlen. unfold parse_error_new.
  destruct (lls_spec orig 0 abs 0 0 ltac:(lia)) as (k & Hk & -> & Hfree & Hnth).
  assert (Els : (if Nat.eqb k 0 then 0 else 0 + k)%nat = k) by (destruct k; cbn; lia).
  rewrite Els. clear Els. cbn [Nat.add].
  (* the text between the line start and the span start has no newline *)
  set (mid := skipn k (firstn abs orig)) in *.
  assert (Hmid_len : length mid = (abs - k)%nat) by (unfold mid; rewrite skipn_length, firstn_length; lia).
  assert (Hrest : skipn k orig = mid ++ skipn abs orig).
  { unfold mid. rewrite <- (firstn_skipn abs orig) at 1. rewrite skipn_app, firstn_length.
    replace (k - Nat.min abs (length orig))%nat with 0%nat by lia. reflexivity. }
  assert (Hpre : firstn abs orig = firstn k orig ++ mid).
  { unfold mid. rewrite <- (firstn_skipn k (firstn abs orig)) at 1. f_equal.
    rewrite firstn_firstn. f_equal. lia. }
  assert (Hcount : count_nl (firstn abs orig) = count_nl (firstn k orig)).
  { rewrite Hpre, count_nl_app, (count_nl_free mid Hfree). lia. }
  assert (Hprefix : firstn k orig = [] \/ exists p, firstn k orig = p ++ [10%N]).
  { destruct k as [|k']; [left; reflexivity|right]. specialize (Hnth ltac:(lia)).
    replace (S k' - 1)%nat with k' in Hnth by lia. exists (firstn k' orig).
    rewrite (firstn_S_nth _ _ _ Hnth). reflexivity. }
  assert (Hlk : length (firstn k orig) = k) by (rewrite firstn_length; lia).
  pose proof (find_nl_spec (skipn k orig) 0) as Hf.
  destruct (find_nl (skipn k orig) 0) as [e|] eqn:Ef.
  - destruct Hf as (_ & Hf1 & q & Hf2). rewrite Nat.sub_0_r in Hf1, Hf2.
    assert (Hcol : (abs - k <= e)%nat).
    { rewrite <- Hmid_len. rewrite Hrest in Hf1, Hf2.
      eapply nl_free_app_first; eauto. }
    exists (firstn k orig), (firstn e (skipn k orig)), (skipn e (skipn k orig)).
    repeat split.
    + now rewrite firstn_skipn, firstn_skipn.
    + exact Hprefix.
    + right. eauto.
    + exact Hf1.
    + lia.
    + rewrite firstn_length. assert (e <= length (skipn k orig))%nat.
      { destruct (Nat.le_gt_cases e (length (skipn k orig))); [assumption|].
        rewrite skipn_all2 in Hf2 by lia. discriminate. }
      lia.
    + lia.
    + rewrite Hlk, Ef. exact Hcol.
  - exists (firstn k orig), (skipn k orig), [].
    repeat split.
    + now rewrite app_nil_r, firstn_skipn.
    + exact Hprefix.
    + now left.
    + exact Hf.
    + lia.
    + rewrite skipn_length. lia.
    + lia.
    + rewrite Hlk, Ef. exact I.
Qed.

(* absolute offset of an error span, as FilterParser::parse hands it to
   ParseError::new (pointer difference between the span and the original input) *)
Definition span_abs_start (orig at_ : bytes) : nat :=
  let trimmed := trim orig in
  let lead := match trimmed with [] => O | _ => (length orig - length (trim_start orig))%nat end in
  (lead + (length trimmed - length at_))%nat.

Lemma span_offsets_inside orig at_ n :
  suffix at_ (trim orig) -> (n <= length at_)%nat -> (span_abs_start orig at_ + n <= length orig)%nat.
Proof.
  intros Hs Hn. unfold span_abs_start. apply suffix_length in Hs.
  assert (H1 : (length (trim orig) <= length (trim_start orig))%nat).
  { unfold trim. cbv zeta. rewrite rev_length.
    pose proof (suffix_length _ _ (drop_while_some_suffix ws_suffix_rev ws_suffix_rev_suffix
                                     (List.length (trim_start orig)) (rev (trim_start orig)))) as H.
    now rewrite rev_length in H. }
  pose proof (suffix_length _ _ (trim_start_suffix orig)) as H2.
  destruct (trim orig); cbn [length] in *; lia.
Qed.
