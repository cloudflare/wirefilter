(* C07: the document, and with it the JSON text, determines the structure
   (AstJsonInj: the document does, given two facts about address texts;
   IpTextInj: those two facts; JsonPrintProofs: the text printer is injective;
   LitsTyped: well-typed filters satisfy the premise; ParserClosed: the parser
   model accepts only well-typed filters). *)
From Coq Require Import List.
From WF Require Import Parse.Lex Parse.Parser Spec.Typing Sem.AstJson Spec.C07 Proofs.AstJsonProofs
     Proofs.JsonPrintProofs Proofs.AstJsonInj Proofs.IpTextInj Proofs.LitsTyped Proofs.ParserClosed.
Import ListNotations.

Lemma document_determines_structure sch e1 e2 :
  names_distinct sch -> lits_typed sch e1 -> lits_typed sch e2 ->
  json_of_lexpr sch e1 = json_of_lexpr sch e2 -> struct_eq e1 e2.
Proof. intros Hn. exact (json_determines_structure ip_text_injective ip_text_no_slash sch Hn e1 e2). Qed.

Lemma text_determines_structure sch e1 e2 :
  names_distinct sch -> wt_filter sch e1 = true -> wt_filter sch e2 = true -> ips_ok e1 -> ips_ok e2 ->
  filter_json_text sch e1 = filter_json_text sch e2 -> struct_eq e1 e2.
Proof.
  intros Hn W1 W2 K1 K2 H. apply (document_determines_structure sch); auto using wt_lits_typed.
  now apply jprint_injective.
Qed.

Lemma parsed_text_determines_structure sch st t1 t2 e1 e2 r1 r2 :
  names_distinct sch -> parse_filter sch st t1 = LOk e1 r1 -> parse_filter sch st t2 = LOk e2 r2 ->
  ips_ok e1 -> ips_ok e2 ->
  (filter_json_text sch e1 = filter_json_text sch e2 <-> struct_eq e1 e2).
Proof.
  intros Hn P1 P2 K1 K2. split.
  - apply text_determines_structure; auto.
    + pose proof (parse_filter_post sch st t1) as P. rewrite P1 in P. exact (proj1 (proj1 P)).
    + pose proof (parse_filter_post sch st t2) as P. rewrite P2 in P. exact (proj1 (proj1 P)).
  - intro H. exact (proj1 (struct_eq_same_hash sch e1 e2 H)).
Qed.
