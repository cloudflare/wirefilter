(* C03 — Function calls get the evaluated arguments; map-each and concat as
   specified.  Property theorems only. *)
From Coq Require Import List String.
From WF Require Import Base.Bytes Lang.Types Lang.Ast Lang.Context Sem.Funs Sem.Compile Spec.Denote
     Spec.Typing Proofs.ExecProofs Proofs.CallProofs Proofs.FullProofs Proofs.FunsProofs Parse.Lex
     Parse.Parser Spec.Grammar Proofs.GrammarProofs Props.C01.
Import ListNotations.

(* Text level: a call written in the surface grammar (Spec/Grammar.v: name ( arg , arg ... ) [index]... where an
   argument is a quoted byte string, a field or nested call with index accesses - [*] only in the first -, or a
   logical expression that begins with `(`, `not` or `!`; arity, kinds and types as the definition demands)
   parses to the call node the grammar assigns to it, arguments in source order, and executing the filter
   gives its denotation (the implementation applied to the evaluated arguments, per element under [*]). *)
Theorem C03_text_level : forall sch st text e c,
  GFilter sch st text e -> ctx_ok sch c = true -> fns_ok sch ->
  parse_filter sch st text = LOk e [] /\
  exists b, run_filter sch e c = Some b /\ denote_filter sch e c = Some b.
Proof. exact C01_text_level. Qed.

Example C03_text_level_instance :
  GFilter gex2_sch default_settings gex2_text gex2_ast /\ parse_filter gex2_sch default_settings gex2_text = LOk gex2_ast [].
Proof. split; [exact gex2_in_grammar|exact gex2_parses]. Qed.

(* Filters with calls: the implementation is invoked with exactly the evaluated
   arguments in source order followed by the defaults of the omitted optional
   parameters (this is what [denote] says); with [*] in the first argument it is
   applied once per element in order, absent results dropped, the other
   arguments evaluated against the same context whether memoised or not; an
   absent result behaves like an absent field. Never panics. *)
Theorem C03_filter_exec_is_denote : forall (sch : scheme) (e : lexpr) (c : ctx),
  wt_filter sch e = true -> ctx_ok sch c = true -> fns_ok sch ->
  exists b, run_filter sch e c = Some b /\ denote_filter sch e c = Some b.
Proof. exact filter_exec_is_denote. Qed.

(* Value expressions (calls, index paths): the result is the denotation, a value
   of the static type or an absence tagged with it. *)
Theorem C03_value_exec_is_denote : forall sch e c t,
  wt_value sch e = Some t -> ctx_ok sch c = true -> fns_ok sch ->
  exists r, run_value sch e c = Some r /\ denote_value sch e c = Some r /\
            match r with VOk v => has_type v t = true | VAbsent t' => t' = t end.
Proof. exact value_exec_is_denote. Qed.

(* One compiled call, all three closure variants (no extra argument / memoised /
   re-evaluated per element): the same result. *)
Theorem C03_call_eval : forall sch c, ctx_ok sch c = true -> fns_ok sch ->
  forall fn a d ret cvs rs ds idx,
  fn_of sch fn = Some d -> ty_ret sch fn a = Some ret ->
  arity_ok d ret (List.length (args_to_list a)) ->
  Forall2 (fun (cv : cval) r => cv c = Some r) cvs rs ->
  Forall3 (arg_rel' sch) (args_to_list a) rs ds ->
  denote_args sch a c = Some ds ->
  forallb (fun x => Nat.eqb (arg_map_each_count x) 0) (tl (args_to_list a)) = true ->
  (if fn_variadic_same d then Forall (fun x => wt_arg sch x = Some ret) (args_to_list a)
   else Forall2 (fun x kt => wt_arg sch x = Some (snd kt)) (args_to_list a)
                (firstn (List.length (args_to_list a)) (sig_of d))) ->
  let mapped := match args_to_list a with a0 :: _ => Nat.ltb 0 (arg_map_each_count a0) | [] => false end in
  let t0 := if mapped then TArray ret else ret in
  exists call base,
    compile_call_with sch fn a cvs = Some call /\ call c = Some (res_of base t0) /\
    (forall v, base = Some v -> has_type v t0 = true) /\
    denote_ident sch (ICall fn a idx) c = Some (base, t0, idx).
Proof. intros sch c _. exact (call_eval sch c). Qed.

(* The built-in concat: present arguments joined in order; absent iff all absent. *)
Theorem C03_concat_bytes : forall l,
  Forall (fun r => vres_typed r TBytes = true) l ->
  concat_impl l = Some (match present_bytes l with
                        | [] => None
                        | _ => Some (VBytes (List.concat (present_bytes l)))
                        end).
Proof. exact concat_bytes_args. Qed.

Theorem C03_concat_arrays : forall t l,
  Forall (fun r => vres_typed r (TArray t) = true) l ->
  concat_impl l = Some (match present_arrays l with
                        | [] => None
                        | _ => Some (VArray t (List.concat (present_arrays l)))
                        end).
Proof. exact concat_array_args. Qed.

(* Non-vacuity of [fns_ok]: every function of the harness library (but the
   deliberately panicking `boom`) meets the assumption. *)
Theorem C03_library_ok : forall name d,
  lib_fn name = Some d -> name <> bytes_of_string "boom" -> fn_ok d.
Proof. exact lib_fn_ok. Qed.

Check C03_filter_exec_is_denote : forall (sch : scheme) (e : lexpr) (c : ctx),
  wt_filter sch e = true -> ctx_ok sch c = true -> fns_ok sch ->
  exists b, run_filter sch e c = Some b /\ denote_filter sch e c = Some b.
