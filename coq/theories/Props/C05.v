(* C05 — Parsing is total: any input yields an AST or a well-formed error, never
   a crash.

   Proved here for the parser model (Parse/Lex.v, Parse/Parser.v; validated
   against the real parser on ASTs, error kinds and error positions), for every
   scheme, every settings value and every byte string:
     - parsing a filter or a value expression never panics (no slice off a
       character boundary, no unwrap of None, no unreachable!() arm);
     - every error span lies inside the (trimmed) input, so the assertion of
       ParseError::new holds;
     - ParseError::new designates a line of the input, the column range lies
       inside that line, and its usize subtraction cannot underflow.
     - parsing terminates: the recursion fuel the model hands to the descent
       (8 * length + 16 steps) always suffices, because every recursive call
       works on a strictly shorter input or belongs to a chain of at most five
       calls on the same input (Proofs/FuelProofs.v).
   [C05_total] puts these together: every input yields an AST with the whole
   input consumed, or an error whose span lies inside the input.
   Not expressible in the model: the native stack the real parser uses; it is
   checked by the size-stress run (stack needed must not grow with the input). *)
From Coq Require Import List NArith.
From WF Require Import Base.Bytes Parse.Lex Parse.Parser Proofs.ParserProofs Proofs.ParserClosed
     Proofs.FuelProofs Run.Lang.
Import ListNotations.

Definition total {A} (text : bytes) (r : lres A) : Prop :=
  (exists e, r = LOk e [])
  \/ (exists k at_ n, r = LErr k at_ n /\ suffix at_ (trim text) /\ (n <= List.length at_)%nat /\
                       (span_abs_start text at_ + n <= List.length text)%nat).

Theorem C05_total : forall sch st text,
  total text (parse_filter sch st text) /\ total text (parse_value sch st text).
Proof.
  intros sch st text.
  assert (G : forall A (P : A -> Prop) (r : lres A), parse_post text P r -> r <> LFuel -> total text r).
  { intros A P [e rest|k at_ n| |] Hp T; cbn in Hp; [left|right|contradiction..].
    - destruct Hp as [_ ->]. eauto.
    - destruct Hp as [P1 P2]. exists k, at_, n. repeat split; auto. now apply span_offsets_inside. }
  split; eapply G; auto using parse_filter_post, parse_value_post, parse_filter_terminates, parse_value_terminates.
Qed.

Theorem C05_parse_terminates : forall sch st text,
  parse_filter sch st text <> LFuel /\ parse_value sch st text <> LFuel.
Proof. intros sch st text. split; [apply parse_filter_terminates|apply parse_value_terminates]. Qed.

Theorem C05_parse_never_panics : forall sch st text,
  parse_filter sch st text <> LPanic /\ parse_value sch st text <> LPanic.
Proof.
  intros sch st text. split; intros H.
  - pose proof (parse_filter_post sch st text) as P. now rewrite H in P.
  - pose proof (parse_value_post sch st text) as P. now rewrite H in P.
Qed.

Theorem C05_error_span_inside_input : forall sch st text k at_ n,
  parse_filter sch st text = LErr k at_ n \/ parse_value sch st text = LErr k at_ n ->
  suffix at_ (trim text) /\ (n <= List.length at_)%nat /\
  (span_abs_start text at_ + n <= List.length text)%nat.
Proof.
  intros sch st text k at_ n H.
  assert (P : suffix at_ (trim text) /\ (n <= List.length at_)%nat).
  { destruct H as [H|H]; [pose proof (parse_filter_post sch st text) as P|pose proof (parse_value_post sch st text) as P];
      rewrite H in P; exact P. }
  destruct P as [P1 P2]. split; [assumption|]. split; [assumption|]. now apply span_offsets_inside.
Qed.

Theorem C05_error_position_well_formed : forall orig abs len,
  (abs + len <= List.length orig)%nat ->
  let '(line, col, len') := parse_error_new orig abs len in
  exists pre l post,
    orig = pre ++ l ++ post /\
    (pre = [] \/ exists p, pre = p ++ [10%N]) /\
    (post = [] \/ exists q, post = 10%N :: q) /\
    nl_free l /\ line = count_nl pre /\
    (col + len' <= List.length l)%nat /\ (len' <= len)%nat /\
    match find_nl (skipn (List.length pre) orig) 0 with Some e => (col <= e)%nat | None => True end.
Proof. exact parse_error_new_spec. Qed.

Check C05_parse_never_panics : forall sch st text,
  parse_filter sch st text <> LPanic /\ parse_value sch st text <> LPanic.
