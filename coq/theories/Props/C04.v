(* C04 — Parsing accepts exactly the well-typed filters; accepted ones never
   fail later.  What is proved here is the second half on the AST: every filter
   or value expression that satisfies the documented typing rules
   ([wt_filter] / [wt_value], Spec/Typing.v) compiles and executes without
   panicking on every context whose mandatory fields are set and whose values
   have their declared types, and a value expression yields a value of its
   static type or an absence tagged with it.  For the first half, soundness is
   proved on the parser model: whatever parse_filter / parse_value accept
   satisfies the typing rules (so it never fails later); completeness (every
   well-typed candidate is accepted) is proved for the texts of the surface
   grammar of Spec/Grammar.v ([C04_grammar_is_accepted_partial],
   [C04_grammar_value_is_accepted_partial]) and, for the constructs the grammar
   does not describe, validated by correspondence on exhaustive matrices and
   random well-/ill-typed candidates, hence [_partial]. *)
From Coq Require Import List.
From WF Require Import Base.Bytes Lang.Types Lang.Ast Sem.Compile Spec.Denote Spec.Typing
     Proofs.CallProofs Proofs.FullProofs Parse.Lex Parse.Parser Proofs.ParserClosed Spec.Grammar
     Proofs.GrammarProofs.
Import ListNotations.

Definition C04_full : Prop :=
  forall (parse : scheme -> bytes -> option lexpr) (render : scheme -> lexpr -> bytes),
    forall sch e, wt_filter sch e = true <-> parse sch (render sch e) = Some e.

Lemma accepted_never_panics sch e c :
  wt_filter sch e = true -> ctx_ok sch c = true -> fns_ok sch -> run_filter sch e c <> None.
Proof.
  intros H1 H2 H3. destruct (filter_exec_is_denote sch e c H1 H2 H3) as (b & Hb & _). congruence.
Qed.

Theorem C04_accepted_never_panics_partial : forall sch e c,
  wt_filter sch e = true -> ctx_ok sch c = true -> fns_ok sch -> run_filter sch e c <> None.
Proof. exact accepted_never_panics. Qed.

Theorem C04_value_expr_result_typed : forall sch e c t,
  wt_value sch e = Some t -> ctx_ok sch c = true -> fns_ok sch ->
  exists r, run_value sch e c = Some r /\ denote_value sch e c = Some r /\
            match r with VOk v => has_type v t = true | VAbsent t' => t' = t end.
Proof. exact value_exec_is_denote. Qed.

(* the static type the model's GetType computes is the specification's *)
Theorem C04_static_types_agree : forall sch c, ctx_ok sch c = true -> fns_ok sch ->
  forall e t, wt_lexpr sch e = Some t -> ty_lexpr sch e = Some t.
Proof.
  intros sch c _ _ e t. apply TypingProofs.wt_ty_lexpr.
Qed.

(* soundness of the parser model, at the text level *)
Theorem C04_parser_accepts_only_well_typed : forall sch st text e rest,
  parse_filter sch st text = LOk e rest -> wt_filter sch e = true.
Proof.
  intros sch st text e rest H. pose proof (parse_filter_post sch st text) as P.
  rewrite H in P. exact (proj1 (proj1 P)).
Qed.

Theorem C04_parser_accepts_only_well_typed_values : forall sch st text e rest,
  parse_value sch st text = LOk e rest -> exists t, wt_value sch e = Some t.
Proof.
  intros sch st text e rest H. pose proof (parse_value_post sch st text) as P.
  rewrite H in P. exact (proj1 (proj1 P)).
Qed.

(* Completeness on the surface grammar: every text of Spec/Grammar.v (a well-typed filter written in any
   layout, spelling and literal form; constructs covered: see that file) is accepted, with the intended AST.
   Partial with respect to C04_full: the grammar does not yet describe every construct of the language; for
   the rest, completeness is decided by the exhaustive matrices of the correspondence check. *)
Theorem C04_grammar_is_accepted_partial : forall sch st text e,
  GFilter sch st text e -> parse_filter sch st text = LOk e [] /\ wt_filter sch e = true.
Proof.
  intros sch st text e HG. pose proof (filter_grammar_parses sch st text e HG) as Hp.
  split; [exact Hp|]. eapply C04_parser_accepts_only_well_typed; exact Hp.
Qed.

(* the same for value expressions: a field with index accesses that does not iterate *)
Theorem C04_grammar_value_is_accepted_partial : forall sch st text e,
  GValue sch text e -> parse_value sch st text = LOk e [] /\ exists t, wt_value sch e = Some t.
Proof.
  intros sch st text e HG. pose proof (value_grammar_parses sch st text e HG) as Hp.
  split; [exact Hp|]. eapply C04_parser_accepts_only_well_typed_values; exact Hp.
Qed.

(* text to execution: an accepted filter runs without panicking on every well-formed context *)
Theorem C04_parsed_filter_never_panics : forall sch st text e rest c,
  parse_filter sch st text = LOk e rest -> ctx_ok sch c = true -> fns_ok sch -> run_filter sch e c <> None.
Proof.
  intros sch st text e rest c H. apply accepted_never_panics.
  eapply C04_parser_accepts_only_well_typed; eauto.
Qed.

Theorem C04_parsed_value_result_typed : forall sch st text e rest c,
  parse_value sch st text = LOk e rest -> ctx_ok sch c = true -> fns_ok sch ->
  exists t r, wt_value sch e = Some t /\ run_value sch e c = Some r /\
              match r with VOk v => has_type v t = true | VAbsent t' => t' = t end.
Proof.
  intros sch st text e rest c H Hc Hf.
  destruct (C04_parser_accepts_only_well_typed_values _ _ _ _ _ H) as (t & Ht).
  destruct (value_exec_is_denote sch e c t Ht Hc Hf) as (r & Hr & _ & Hty). eauto.
Qed.

Check C04_accepted_never_panics_partial : forall sch e c,
  wt_filter sch e = true -> ctx_ok sch c = true -> fns_ok sch -> run_filter sch e c <> None.
