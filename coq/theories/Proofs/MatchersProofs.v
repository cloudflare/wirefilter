(* Proofs for C11: the quoted-regex scanner, the wildcard matcher and the
   reference regex matcher of Sem/Matchers.v against Spec/C11.v. *)
From Coq Require Import List NArith Bool Lia.
From WF Require Import Base.Bytes Parse.Lex Sem.Matchers Spec.C11 Spec.C06 Proofs.LexBytesProofs.
Import ListNotations.
Local Open Scope N_scope.

Lemma option_map_some {A B} (f : A -> B) o y :
  option_map f o = Some y -> exists x, o = Some x /\ y = f x.
Proof. destruct o as [x|]; [intros [= <-]; eauto|discriminate]. Qed.

Lemma rmatch_set neg rs pre w post :
  rmatch (RSet neg rs) pre w post <-> exists c, w = [c] /\ byte_in_set neg rs c.
Proof. split; [intros H; inversion H; eauto|intros (c & -> & H); now constructor]. Qed.

Lemma rmatch_eps pre w post : rmatch REps pre w post <-> w = [].
Proof. split; [now inversion 1|intros ->; constructor]. Qed.

Lemma rmatch_start pre w post : rmatch RStart pre w post <-> pre = [] /\ w = [].
Proof. split; [now inversion 1|intros [-> ->]; constructor]. Qed.

Lemma rmatch_end pre w post : rmatch REnd pre w post <-> w = [] /\ post = [].
Proof. split; [now inversion 1|intros [-> ->]; constructor]. Qed.

Lemma rmatch_seq a b pre w post :
  rmatch (RSeq a b) pre w post <->
  exists w1 w2, w = w1 ++ w2 /\ rmatch a pre w1 (w2 ++ post) /\ rmatch b (pre ++ w1) w2 post.
Proof. split; [intros H; inversion H; subst; eauto|intros (w1 & w2 & -> & Ha & Hb); now constructor]. Qed.

Lemma rmatch_alt a b pre w post :
  rmatch (RAlt a b) pre w post <-> rmatch a pre w post \/ rmatch b pre w post.
Proof. split; [inversion 1; auto|intros [H|H]; now constructor]. Qed.

Lemma rmatch_fail pre w post : ~ rmatch RFail pre w post.
Proof. intros (c & _ & lo & hi & [] & _)%rmatch_set. Qed.

Definition nilb (l : bytes) : bool := match l with [] => true | _ => false end.

Lemma nilb_app_cons (a : bytes) c b : nilb (a ++ c :: b) = false.
Proof. now destruct a. Qed.

Lemma in_range_spec c p : in_range c p = true <-> fst p <= c <= snd p.
Proof. unfold in_range. lia. Qed.

Lemma set_mem_spec neg rs c : set_mem neg rs c = true <-> byte_in_set neg rs c.
Proof.
  assert (H : existsb (in_range c) rs = true <-> exists lo hi, In (lo, hi) rs /\ lo <= c <= hi).
  { rewrite existsb_exists. split.
    - intros ([lo hi] & Hin & Hr%in_range_spec). eauto.
    - intros (lo & hi & Hin & Hr). exists (lo, hi). split; [exact Hin|now apply in_range_spec]. }
  unfold set_mem, byte_in_set. destruct neg; [|now rewrite xorb_false_l].
  rewrite xorb_true_l, negb_true_iff, <- H. now destruct (existsb _ rs).
Qed.

Lemma rx_is_fail_eq r : rx_is_fail r = true -> r = RFail.
Proof. now destruct r as [[|] [|x rs]| | | | | |]. Qed.

Lemma list_eqb_eq {A} (f : A -> A -> bool) l1 : forall l2,
  (forall x y, f x y = true -> x = y) -> list_eqb f l1 l2 = true -> l1 = l2.
Proof.
  induction l1 as [|x l1 IH]; intros [|y l2] Hf H; try discriminate H; [reflexivity|].
  apply andb_true_iff in H as [->%Hf Hl]. f_equal. now apply IH.
Qed.

Lemma rx_eqb_eq a : forall b, rx_eqb a b = true -> a = b.
Proof.
  induction a as [n1 r1| | | |a1 IHa b1 IHb|a1 IHa b1 IHb|a1 IHa]; intros [n2 r2| | | |a2 b2|a2 b2|a2] H;
    try discriminate H; try reflexivity; cbn [rx_eqb] in H.
  - apply andb_true_iff in H as [->%eqb_prop Hr]. f_equal. apply (list_eqb_eq _ _ _) in Hr; [exact Hr|].
    intros [x1 x2] [y1 y2] Hxy. cbn [fst snd] in Hxy. f_equal; lia.
  - apply andb_true_iff in H as [->%IHa ->%IHb]. reflexivity.
  - apply andb_true_iff in H as [->%IHa ->%IHb]. reflexivity.
  - now apply IHa in H as ->.
Qed.

Lemma rx_seq_spec a b pre w post :
  rmatch (rx_seq a b) pre w post <-> rmatch (RSeq a b) pre w post.
Proof.
  unfold rx_seq. rewrite rmatch_seq. destruct (rx_is_fail a) eqn:Hf.
  - apply rx_is_fail_eq in Hf as ->.
    split; [intros []%rmatch_fail|intros (w1 & w2 & _ & []%rmatch_fail & _)].
  - destruct a; try apply rmatch_seq. split.
    + intros H. exists [], w. rewrite rmatch_eps, app_nil_r. auto.
    + intros (w1 & w2 & -> & ->%rmatch_eps & H). now rewrite app_nil_r in H.
Qed.

Lemma rx_alt_spec a b pre w post :
  rmatch (rx_alt a b) pre w post <-> rmatch (RAlt a b) pre w post.
Proof.
  unfold rx_alt. rewrite rmatch_alt. pose proof (rmatch_fail pre w post) as Hfail.
  destruct (rx_is_fail a) eqn:Hfa; [apply rx_is_fail_eq in Hfa as ->; tauto|].
  destruct (rx_is_fail b) eqn:Hfb; [apply rx_is_fail_eq in Hfb as ->; tauto|].
  destruct (rx_eqb a b) eqn:He; [apply rx_eqb_eq in He as <-; tauto|apply rmatch_alt].
Qed.

Lemma nullable_spec r : forall pre post,
  rx_nullable (nilb pre) (nilb post) r = true <-> rmatch r pre [] post.
Proof.
  induction r as [neg rs| | | |a IHa b IHb|a IHa b IHb|a IHa]; intros pre post; cbn [rx_nullable].
  - rewrite rmatch_set. split; [discriminate|intros (c & [=] & _)].
  - rewrite rmatch_eps. split; reflexivity.
  - rewrite rmatch_start. destruct pre; cbn [nilb]; split; auto; [discriminate|intros [[=] _]].
  - rewrite rmatch_end. destruct post; cbn [nilb]; split; auto; [discriminate|intros [_ [=]]].
  - rewrite andb_true_iff, IHa, IHb, rmatch_seq. split.
    + intros [Ha Hb]. exists [], []. rewrite (app_nil_r pre). auto.
    + intros (w1 & w2 & [-> ->]%eq_sym%app_eq_nil & Ha & Hb). rewrite app_nil_r in Hb. auto.
  - rewrite orb_true_iff, IHa, IHb, rmatch_alt. reflexivity.
  - split; [constructor|reflexivity].
Qed.

Lemma deriv_complete r pre w0 post :
  rmatch r pre w0 post ->
  forall c w, w0 = c :: w -> rmatch (rx_deriv (nilb pre) c r) (pre ++ [c]) w post.
Proof.
  induction 1 as [neg rs pre c0 post Hin|pre post|post|pre
    |a b pre w1 w2 post Ha IHa Hb IHb|a b pre w' post Ha IHa|a b pre w' post Hb IHb
    |a pre post|a pre w1 w2 post Ha IHa Hs IHs]; intros c w Hw; cbn [rx_deriv]; try discriminate Hw.
  - injection Hw as -> <-. apply set_mem_spec in Hin. rewrite Hin. constructor.
  - apply rx_alt_spec. destruct w1 as [|x w1]; cbn [app] in Hw.
    + subst w2. apply RmAltR. apply nullable_spec in Ha. cbn [app nilb] in Ha. rewrite Ha.
      rewrite app_nil_r in IHb. now apply IHb.
    + injection Hw as -> <-. apply RmAltL, rx_seq_spec, RmSeq; [now apply IHa|].
      now rewrite <- app_assoc.
  - apply rx_alt_spec, RmAltL. now apply IHa.
  - apply rx_alt_spec, RmAltR. now apply IHb.
  - destruct w1 as [|x w1]; cbn [app] in Hw.
    + rewrite app_nil_r in IHs. now apply IHs.
    + injection Hw as -> <-. apply rx_seq_spec, RmSeq; [now apply IHa|]. now rewrite <- app_assoc.
Qed.

Lemma deriv_sound r : forall pre c w post,
  rmatch (rx_deriv (nilb pre) c r) (pre ++ [c]) w post -> rmatch r pre (c :: w) post.
Proof.
  induction r as [neg rs| | | |a IHa b IHb|a IHa b IHb|a IHa]; intros pre c w post; cbn [rx_deriv];
    try (now intros []%rmatch_fail).
  - destruct (set_mem neg rs c) eqn:Hm; [|now intros []%rmatch_fail].
    intros ->%rmatch_eps. constructor. now apply set_mem_spec.
  - intros [(w1 & w2 & -> & Ha & Hb)%rx_seq_spec%rmatch_seq|Hr]%rx_alt_spec%rmatch_alt.
    + rewrite <- app_assoc in Hb. apply (RmSeq a b pre (c :: w1) w2 post); auto.
    + destruct (rx_nullable (nilb pre) false a) eqn:Hn; [|now apply rmatch_fail in Hr].
      apply (RmSeq a b pre [] (c :: w) post); [now apply nullable_spec|]. rewrite app_nil_r. auto.
  - intros [H|H]%rx_alt_spec%rmatch_alt; [apply RmAltL|apply RmAltR]; auto.
  - intros (w1 & w2 & -> & Ha & Hs)%rx_seq_spec%rmatch_seq.
    rewrite <- app_assoc in Hs. apply (RmStarCons a pre (c :: w1) w2 post); auto.
Qed.

Lemma deriv_spec r pre c w post :
  rmatch r pre (c :: w) post <-> rmatch (rx_deriv (nilb pre) c r) (pre ++ [c]) w post.
Proof. split; [intros H; now apply (deriv_complete _ _ _ _ H)|apply deriv_sound]. Qed.

Lemma prefix_spec rest : forall r pre,
  rx_prefix (nilb pre) r rest = true <-> exists w post, rest = w ++ post /\ rmatch r pre w post.
Proof.
  induction rest as [|c rest IH]; intros r pre; cbn [rx_prefix].
  - rewrite orb_false_r. change true with (nilb []). rewrite nullable_spec. split.
    + intros H. exists [], []. auto.
    + intros (w & post & [-> ->]%eq_sym%app_eq_nil & H). exact H.
  - rewrite orb_true_iff. change false with (nilb (c :: rest)) at 1.
    rewrite nullable_spec, <- (nilb_app_cons pre c []), IH. split.
    + intros [H|(w & post & -> & H%deriv_spec)]; [exists [], (c :: rest)|exists (c :: w), post]; auto.
    + intros ([|x w] & post & E & H); cbn [app] in E; [subst post; auto|].
      injection E as <- ->. right. exists w, post. split; [reflexivity|apply deriv_spec, H].
Qed.

Lemma search_spec rest : forall r pre,
  rx_search (nilb pre) r rest = true <->
  exists a w post, rest = a ++ w ++ post /\ rmatch r (pre ++ a) w post.
Proof.
  induction rest as [|c rest IH]; intros r pre; cbn [rx_search].
  - rewrite orb_false_r, prefix_spec. split.
    + intros (w & post & Hs & H). exists [], w, post. rewrite app_nil_r. auto.
    + intros (a & w & post & [-> E]%eq_sym%app_eq_nil & H). rewrite app_nil_r in H. exists w, post. auto.
  - rewrite orb_true_iff, prefix_spec, <- (nilb_app_cons pre c []), IH. split.
    + intros [(w & post & Hs & H)|(a & w & post & -> & H)].
      * exists [], w, post. rewrite app_nil_r. auto.
      * exists (c :: a), w, post. rewrite <- app_assoc in H. auto.
    + intros ([|x a] & w & post & E & H); cbn [app] in E.
      * left. rewrite app_nil_r in H. exists w, post. auto.
      * injection E as <- ->. right. exists a, w, post. rewrite <- app_assoc. auto.
Qed.

Theorem regex_run_spec : forall (r : regex_ast) (h : bytes),
  regex_run r h = true <-> regex_search_spec r h.
Proof. intros r h. unfold regex_run. change true with (nilb []) at 1. now rewrite search_spec. Qed.

Definition map_pat (f : bytes -> bytes) (r : option (bytes * bytes)) : option (bytes * bytes) :=
  match r with Some (p, rest) => Some (f p, rest) | None => None end.

Lemma map_pat_some f r p rest :
  map_pat f r = Some (p, rest) -> exists p', r = Some (p', rest) /\ p = f p'.
Proof. destruct r as [[p' rest']|]; [intros [= <- <-]; eauto|discriminate]. Qed.

Lemma scan_go_escape c s ic :
  regex_scan_go (92 :: c :: s) ic =
  map_pat (fun p => if ic || negb (c =? 34) then 92 :: c :: p else c :: p) (regex_scan_go s ic).
Proof. cbn. now destruct (regex_scan_go s ic) as [[p rest]|]. Qed.

Lemma scan_go_other c s ic : c <> 92 ->
  regex_scan_go (c :: s) ic =
  if (c =? 34) && negb ic then Some ([], s)
  else map_pat (cons c) (regex_scan_go s (if (c =? 91) && negb ic then true
                                          else if (c =? 93) && ic then false else ic)).
Proof.
  intros H%N.eqb_neq. cbn [regex_scan_go]. rewrite H. destruct ((c =? 34) && negb ic); [reflexivity|].
  now destruct (regex_scan_go s _) as [[p rest]|].
Qed.

Lemma scan_other_sound c s ic p rest : c <> 92 ->
  (forall ic' p', regex_scan_go s ic' = Some (p', rest) -> scan_spec ic' s p' rest) ->
  regex_scan_go (c :: s) ic = Some (p, rest) -> scan_spec ic (c :: s) p rest.
Proof.
  intros H92 IH. rewrite scan_go_other by exact H92.
  destruct (N.eqb_spec c 34) as [->|H34], ic; cbn [andb negb]; rewrite ?andb_false_r, ?andb_true_r.
  - intros (p' & Er%IH & ->)%map_pat_some. now apply ScQuoteInside.
  - intros [= <- <-]. apply ScEnd.
  - destruct (N.eqb_spec c 93) as [->|H93]; intros (p' & Er%IH & ->)%map_pat_some;
      [now apply ScClose|now apply ScPlain].
  - destruct (N.eqb_spec c 91) as [->|H91]; intros (p' & Er%IH & ->)%map_pat_some;
      [now apply ScOpen|now apply ScPlain].
Qed.

(* the escape step skips two bytes: induction on a bound of the length *)
Lemma scan_go_sound n : forall s ic p rest,
  (length s <= n)%nat -> regex_scan_go s ic = Some (p, rest) -> scan_spec ic s p rest.
Proof.
  induction n as [|n IH]; intros [|c s] ic p rest Hl; try discriminate; cbn [length] in Hl; [lia|].
  destruct (N.eqb_spec c 92) as [->|H92].
  - destruct s as [|c2 s]; [discriminate|]. rewrite scan_go_escape.
    intros (p' & Er%IH & ->)%map_pat_some; [|cbn [length] in Hl; lia].
    destruct ic; [now apply ScEscape; auto|]. cbn [orb].
    destruct (N.eqb_spec c2 34) as [->|]; [now apply ScQuoteOutside|now apply ScEscape; auto].
  - apply scan_other_sound; [exact H92|]. intros ic' p'. apply IH. lia.
Qed.

Lemma scan_go_complete : forall (ic : bool) (s p rest : bytes),
  scan_spec ic s p rest -> regex_scan_go s ic = Some (p, rest).
Proof.
  induction 1 as [rest|s p rest H IH|ic c s p rest Hc H IH|s p rest H IH|s p rest H IH|s p rest H IH
                  |ic c s p rest H92 H34 H91 H93 H IH]; try (cbn; rewrite ?IH; reflexivity).
  - rewrite scan_go_escape, IH. destruct Hc as [->|Hc%N.eqb_neq]; [reflexivity|].
    rewrite Hc, orb_true_r. reflexivity.
  - rewrite scan_go_other by exact H92. apply N.eqb_neq in H34. rewrite H34. cbn [andb].
    destruct (N.eqb_spec c 91) as [->|_]; [rewrite (H91 eq_refl) in *; cbn; rewrite IH; reflexivity|].
    destruct (N.eqb_spec c 93) as [->|_]; [rewrite (H93 eq_refl) in *; cbn; rewrite IH; reflexivity|].
    cbn [andb]. rewrite IH. reflexivity.
Qed.

Lemma scan_clean_spec : forall (ic : bool) (body : bytes),
  scan_clean ic body -> forall rest, scan_spec ic (body ++ 34 :: rest) body rest.
Proof. induction 1; intros rest; cbn [app]; constructor; auto. Qed.

Lemma plain_is_clean : forall body : bytes,
  Forall (fun c => c <> 34 /\ c <> 92 /\ c <> 91) body -> scan_clean false body.
Proof.
  intros body H. induction H as [|c body [H34 [H92 H91]] Hf IH]; [constructor|].
  apply CleanPlain; try assumption; [intro Hc; contradiction|reflexivity].
Qed.

Theorem scanner_unescapes_quote_outside_class : forall s : bytes,
  regex_scan_go (92 :: 34 :: s) false = map_pat (cons 34) (regex_scan_go s false).
Proof. intro s. apply scan_go_escape. Qed.

Theorem scanner_keeps_escape_inside_class : forall (c : N) (s : bytes),
  regex_scan_go (92 :: c :: s) true = map_pat (fun p => 92 :: c :: p) (regex_scan_go s true) /\
  regex_scan_go (34 :: s) true = map_pat (cons 34) (regex_scan_go s true).
Proof. intros c s. split; [apply scan_go_escape|now apply scan_go_other]. Qed.

(* a lone backslash: the iterator runs dry (MissingEndingQuote) *)
Theorem scanner_trailing_backslash : forall (ic : bool), regex_scan_go [92] ic = None.
Proof. intro ic. reflexivity. Qed.

(* the definition of wparse matches on numerals; this is its reading with tests *)
Lemma wparse_unfold : forall (c : N) (r : bytes),
  wparse (c :: r) =
  if c =? 92 then
    match r with
    | [] => None
    | d :: r' =>
        if d =? 42 then option_map (cons (WLit 42)) (wparse r')
        else if d =? 92 then option_map (cons (WLit 92)) (wparse r')
        else None
    end
  else if c =? 42 then option_map (cons WStar) (wparse r)
  else option_map (cons (WLit c)) (wparse r).
Proof.
  intros c r. destruct c as [|p]; [reflexivity|].
  do 7 (try (destruct p as [p|p|]); try reflexivity).
  destruct r as [|d r']; [reflexivity|].
  destruct d as [|q]; [reflexivity|].
  do 7 (try (destruct q as [q|q|]); try reflexivity).
Qed.

Lemma wparse_sound : forall (n : nat) (p : bytes) (t : list wtok),
  (length p <= n)%nat -> wparse p = Some t -> wtokens p t.
Proof.
  induction n as [|n IH]; intros [|c r] t Hl;
    [intros [= <-]; constructor|cbn in Hl; lia|intros [= <-]; constructor|].
  cbn [length] in Hl. rewrite wparse_unfold. destruct (N.eqb_spec c 92) as [->|H92].
  - destruct r as [|d r']; [discriminate|]. cbn [length] in Hl.
    destruct (N.eqb_spec d 42) as [->|_]; [|destruct (N.eqb_spec d 92) as [->|_]; [|discriminate]];
      intros (t' & Er%IH & ->)%option_map_some; try lia; [apply WtEscStar, Er|apply WtEscBackslash, Er].
  - destruct (N.eqb_spec c 42) as [->|H42]; intros (t' & Er%IH & ->)%option_map_some; try lia;
      [apply WtStar, Er|apply WtChar; assumption].
Qed.

Lemma wparse_app : forall (p : bytes) (t : list wtok), wtokens p t ->
  forall q, wparse (p ++ q) = option_map (app t) (wparse q).
Proof.
  induction 1 as [|p t H IH|p t H IH|p t H IH|c p t H92%N.eqb_neq H42%N.eqb_neq H IH]; intro q; cbn [app].
  1: now destruct (wparse q).
  1-3: cbn [wparse]; rewrite IH; now destruct (wparse q).
  rewrite wparse_unfold, H92, H42, IH. now destruct (wparse q).
Qed.

Lemma wparse_complete : forall (p : bytes) (t : list wtok), wtokens p t -> wparse p = Some t.
Proof. intros p t H. rewrite <- (app_nil_r p), (wparse_app _ _ H). cbn. now rewrite app_nil_r. Qed.

Theorem wparse_spec : forall (p : bytes) (t : list wtok), wparse p = Some t <-> wtokens p t.
Proof. intros p t. split; [now apply (wparse_sound (length p))|apply wparse_complete]. Qed.

Lemma wparse_bad_escape : forall (p : bytes) (t : list wtok) (c : N) (q : bytes),
  wtokens p t -> c <> 42 -> c <> 92 -> wparse (p ++ 92 :: c :: q) = None /\ wparse (p ++ [92]) = None.
Proof.
  intros p t c q H H42%N.eqb_neq H92%N.eqb_neq. rewrite !(wparse_app _ _ H), wparse_unfold, H42, H92. now split.
Qed.

Lemma star_count_stars : forall t : list wtok, star_count t = stars t.
Proof. unfold star_count. induction t as [|[c|] t IH]; cbn; congruence. Qed.

Lemma double_star_cons x t : double_star t -> double_star (x :: t).
Proof. intros (a & b & ->). now exists (x :: a), b. Qed.

Lemma has_double_star_spec : forall t : list wtok, has_double_star t = true <-> double_star t.
Proof.
  intro t. split.
  - induction t as [|x [|y t'] IH]; [discriminate|now destruct x|].
    destruct x as [c|], y as [c'|]; try (now exists [], t'); intros H%IH; apply double_star_cons, H.
  - intros (a & b & ->). induction a as [|x a IH]; [reflexivity|].
    cbn [app]. destruct x as [c|]; [exact IH|].
    destruct (a ++ WStar :: WStar :: b) as [|[c|] r]; [discriminate IH|exact IH|reflexivity].
Qed.

Lemma wildcard_compile_new : forall (limit : option N) (p : bytes),
  wildcard_compile limit p = match wildcard_new limit p with inl t => Some t | inr _ => None end.
Proof.
  intros limit p. unfold wildcard_compile, wildcard_new. destruct (wparse p) as [t|]; [|reflexivity].
  destruct (match limit with Some l => N.ltb l (N.of_nat (star_count t)) | None => false end); [reflexivity|].
  destruct (has_double_star t); reflexivity.
Qed.

(* the star limit of Wildcard::new, as the specification words it *)
Lemma star_limit_spec limit t :
  match limit with Some l => N.ltb l (N.of_nat (star_count t)) | None => false end = false <->
  forall l, limit = Some l -> N.of_nat (stars t) <= l.
Proof.
  rewrite star_count_stars. destruct limit as [l|]; [|now split].
  rewrite N.ltb_ge. split; [now intros H l' [= <-]|auto].
Qed.

Theorem wildcard_compile_spec : forall (limit : option N) (p : bytes) (t : list wtok),
  wildcard_compile limit p = Some t <-> wildcard_accept_spec limit p t.
Proof.
  intros limit p t. unfold wildcard_compile, wildcard_accept_spec.
  rewrite <- wparse_spec, <- has_double_star_spec, <- star_limit_spec. split.
  - destruct (wparse p) as [t'|]; [|discriminate].
    destruct (match limit with Some _ => _ | None => _ end) eqn:El; [discriminate|].
    destruct (has_double_star t') eqn:Ed; [discriminate|]. intros [= <-]. now rewrite Ed, El.
  - intros (-> & Hd & ->). now destruct (has_double_star t).
Qed.

Lemma sym_eq_spec : forall (strict : bool) (a b : N), sym_eq strict a b = true <-> sym_spec strict a b.
Proof.
  intros strict a b. unfold sym_eq, sym_spec, ascii_lower, ascii_case_eq. destruct strict; [lia|].
  destruct ((65 <=? a) && (a <=? 90)) eqn:Ea, ((65 <=? b) && (b <=? 90)) eqn:Eb; lia.
Qed.

Theorem wildcard_reject_rules :
  (* ** *)
  (forall limit p t, wtokens p t -> double_star t -> wildcard_compile limit p = None) /\
  (* an invalid escape or a backslash at the end, anywhere after a readable prefix *)
  (forall limit p t c q, wtokens p t -> c <> 42 -> c <> 92 ->
     wildcard_compile limit (p ++ 92 :: c :: q) = None /\ wildcard_compile limit (p ++ [92]) = None) /\
  (* more stars than the limit *)
  (forall l p t, wtokens p t -> l < N.of_nat (stars t) -> wildcard_compile (Some l) p = None) /\
  (* nothing else is rejected *)
  (forall limit p, wildcard_compile limit p = None <->
     ~ (exists t, wtokens p t /\ ~ double_star t /\ (forall l, limit = Some l -> N.of_nat (stars t) <= l))) /\
  (* ? is an ordinary character: it stands for itself and for nothing else *)
  (forall r, wparse (63 :: r) = option_map (cons (WLit 63)) (wparse r)) /\
  (forall strict x, sym_eq strict 63 x = true <-> x = 63).
Proof.
  split; [|split; [|split; [|split; [|split]]]].
  - intros limit p t Hp%wparse_spec Hd%has_double_star_spec. unfold wildcard_compile. rewrite Hp, Hd.
    now destruct (match limit with Some _ => _ | None => _ end).
  - intros limit p t c q Hp H42 H92. unfold wildcard_compile.
    now destruct (wparse_bad_escape p t c q Hp H42 H92) as [-> ->].
  - intros l p t Hp%wparse_spec Hl%N.ltb_lt. unfold wildcard_compile. now rewrite Hp, star_count_stars, Hl.
  - intros limit p. split.
    + intros H [t Ht%(wildcard_compile_spec limit p t)]. congruence.
    + intro H. destruct (wildcard_compile limit p) as [t|] eqn:E; [|reflexivity].
      destruct H. exists t. now apply wildcard_compile_spec.
  - reflexivity.
  - intros strict x. rewrite sym_eq_spec. unfold sym_spec, ascii_case_eq. destruct strict; lia.
Qed.

Lemma wmatch_star_unfold : forall (strict : bool) (r : list wtok) (v : bytes),
  wmatch strict (WStar :: r) v =
  wmatch strict r v || match v with [] => false | _ :: v' => wmatch strict (WStar :: r) v' end.
Proof. intros strict r v. destruct v as [|x v]; reflexivity. Qed.

Lemma wmatch_sound : forall (strict : bool) (t : list wtok) (v : bytes),
  wmatch strict t v = true -> wmatch_spec strict t v.
Proof.
  intros strict t. induction t as [|[c|] r IH]; intros v H.
  - destruct v as [|y v]; [constructor|discriminate H].
  - destruct v as [|y v]; [discriminate H|]. cbn [wmatch] in H.
    apply andb_true_iff in H as [Hs%sym_eq_spec Hr%IH]. now constructor.
  - induction v as [|y v IHv]; rewrite wmatch_star_unfold in H.
    + rewrite orb_false_r in H. now apply (WsStar strict r [] []), IH.
    + apply orb_true_iff in H as [H|H]; [now apply (WsStar strict r [] (y :: v)), IH|].
      specialize (IHv H). inversion IHv as [| |t' u v' Hm]; subst. now apply (WsStar strict r (y :: u) v').
Qed.

Lemma wmatch_complete : forall (strict : bool) (t : list wtok) (v : bytes),
  wmatch_spec strict t v -> wmatch strict t v = true.
Proof.
  intros strict t v H. induction H as [|c x t v Hs%sym_eq_spec H IH|t u v H IH].
  - reflexivity.
  - cbn [wmatch]. now rewrite Hs, IH.
  - induction u as [|y u IHu]; rewrite wmatch_star_unfold; cbn [app]; [now rewrite IH|].
    rewrite IHu. apply orb_true_r.
Qed.

Theorem wmatch_is_spec : forall (strict : bool) (t : list wtok) (v : bytes),
  wmatch strict t v = true <-> wmatch_spec strict t v.
Proof. intros strict t v. split; [apply wmatch_sound|apply wmatch_complete]. Qed.

Theorem wildcard_match_spec : forall (strict : bool) (p v : bytes),
  wildcard_match strict p v = Some true <-> exists t, wtokens p t /\ wmatch_spec strict t v.
Proof.
  intros strict p v. unfold wildcard_match. split.
  - intros (t & Hp%wparse_spec & Hm%eq_sym%wmatch_is_spec)%option_map_some. eauto.
  - intros (t & ->%wparse_spec & Hm%wmatch_is_spec). cbn. now rewrite Hm.
Qed.

(* whole value: every literal consumes exactly one byte of the value *)
Fixpoint lits (t : list wtok) : nat :=
  match t with [] => O | WLit _ :: r => S (lits r) | WStar :: r => lits r end.

Theorem wildcard_whole_value : forall (strict : bool) (t : list wtok) (v : bytes),
  wmatch strict t v = true ->
  (lits t <= length v)%nat /\ (stars t = 0%nat -> length v = lits t).
Proof.
  intros strict t v H%wmatch_is_spec.
  induction H as [|c x t v Hs H [IH1 IH2]|t u v H [IH1 IH2]]; cbn [lits stars length].
  - now split.
  - split; [lia|]. intro Hz. now rewrite (IH2 Hz).
  - split; [rewrite app_length; lia|discriminate].
Qed.

Definition fold_tok (x : wtok) : wtok := match x with WLit c => WLit (ascii_lower c) | WStar => WStar end.

Lemma wmatch_fold : forall (t : list wtok) (v : bytes),
  wmatch false t v = wmatch true (map fold_tok t) (map ascii_lower v).
Proof.
  intro t. induction t as [|[c|] r IH]; intro v.
  - now destruct v.
  - destruct v as [|y v]; [reflexivity|]. cbn [map fold_tok wmatch]. now rewrite IH.
  - cbn [map fold_tok]. induction v as [|y v IHv]; rewrite wmatch_star_unfold, (wmatch_star_unfold true);
      cbn [map]; now rewrite IH, ?IHv.
Qed.

Theorem wildcard_case_rule :
  (forall a b, sym_eq true a b = true <-> a = b) /\
  (forall a b, sym_eq false a b = true <-> ascii_case_eq a b) /\
  (forall t v, wmatch true t v = true -> wmatch false t v = true) /\
  (forall t v, wmatch false t v = wmatch true (map fold_tok t) (map ascii_lower v)).
Proof.
  split; [|split; [|split]].
  - exact (sym_eq_spec true).
  - exact (sym_eq_spec false).
  - intros t v H%wmatch_is_spec. apply wmatch_is_spec.
    induction H as [|c x t v Hs H IH|t u v H IH]; constructor; auto. now left.
  - apply wmatch_fold.
Qed.

Lemma hashes_at_leading : forall s : bytes, hashes_at s = leading_hashes s.
Proof. induction s as [|x s IH]; [reflexivity|]. cbn [hashes_at leading_hashes]. now rewrite IH. Qed.

(* the ASCII case of the round trip of raw strings (LexBytesProofs.raw_body_lex) *)
Theorem raw_string_verbatim : forall (n : nat) (body rest : bytes),
  (n <= 255)%nat ->
  Forall (fun b => b < 128) body ->
  raw_body_ok n body ->
  lex_raw_string_as_str (repeat 35 n ++ 34 :: body ++ 34 :: repeat 35 n ++ rest) = LOk (body, N.of_nat n) rest.
Proof.
  intros n body rest Hn Hascii Hok. apply (raw_body_lex n body rest Hn).
  - clear Hok. induction Hascii; now constructor.
  - intros p q E. rewrite <- hashes_at_leading. now apply (Hok p q).
Qed.

Lemma byte_in_set_cons lo hi rs x :
  byte_in_set false ((lo, hi) :: rs) x <-> lo <= x <= hi \/ byte_in_set false rs x.
Proof.
  cbn. split.
  - intros (l & h & [[= <- <-]|Hin] & Hr); [now left|right; eauto].
  - intros [Hr|(l & h & Hin & Hr)]; [exists lo, hi; auto|exists l, h; auto].
Qed.

Lemma byte_in_set_nil x : byte_in_set false [] x <-> False.
Proof. split; [now intros (l & h & [] & _)|easy]. Qed.

Lemma case_set_spec : forall (strict : bool) (c x : N),
  byte_in_set false (case_set strict c) x <-> sym_spec strict c x.
Proof.
  intros strict c x. unfold case_set, sym_spec, ascii_case_eq.
  destruct strict; [|destruct ((65 <=? c) && (c <=? 90)) eqn:Eu; [|destruct ((97 <=? c) && (c <=? 122)) eqn:El]];
    rewrite !byte_in_set_cons, byte_in_set_nil; lia.
Qed.

Lemma star_any : forall u pre post : bytes, rmatch (RStar (RSet true [])) pre u post.
Proof.
  intro u. induction u as [|y u IH]; intros pre post; [constructor|].
  apply (RmStarCons (RSet true []) pre [y] u post); [|apply IH].
  constructor. now intros (lo & hi & [] & _).
Qed.

Lemma wild_body_sound : forall (strict : bool) (t : list wtok) (pre v post : bytes),
  rmatch (wild_body strict t) pre v post -> wmatch_spec strict t v.
Proof.
  intros strict t. induction t as [|[c|] r IH]; intros pre v post; cbn [wild_body tok_regex].
  - intros ->%rmatch_eps. constructor.
  - intros (w1 & w2 & -> & (y & -> & Hin%case_set_spec)%rmatch_set & Hb%IH)%rmatch_seq. now constructor.
  - intros (w1 & w2 & -> & _ & Hb%IH)%rmatch_seq. now constructor.
Qed.

Lemma wild_body_complete : forall (strict : bool) (t : list wtok) (v : bytes),
  wmatch_spec strict t v -> forall pre post, rmatch (wild_body strict t) pre v post.
Proof.
  intros strict t v H. induction H as [|c x t v Hs H IH|t u v H IH]; intros pre post; cbn [wild_body].
  - constructor.
  - apply (RmSeq _ _ pre [x] v post); [|apply IH]. constructor. now apply case_set_spec.
  - apply RmSeq; [apply star_any|apply IH].
Qed.

(* between the anchors the search has no choice of position *)
Lemma wild_regex_spec strict t v : regex_search_spec (wild_regex strict t) v <-> wmatch_spec strict t v.
Proof.
  unfold regex_search_spec, wild_regex. split.
  - intros (pre & w & post & -> & (w1 & w2 & -> & [-> ->]%rmatch_start & H)%rmatch_seq).
    apply rmatch_seq in H as (w3 & w4 & -> & Hb & [-> ->]%rmatch_end).
    cbn [app]. rewrite !app_nil_r. now apply wild_body_sound in Hb.
  - intro H. exists [], v, []. rewrite app_nil_r. split; [reflexivity|].
    apply (RmSeq RStart _ [] [] v []); [constructor|]. rewrite <- (app_nil_r v).
    apply RmSeq; [now apply wild_body_complete|constructor].
Qed.
