(* Facts about the typing rules: agreement with the engine's GetType
   (ty_* of Sem/Compile.v), shape of logical types, chains. *)
From Coq Require Import List Bool.
From WF Require Import Lang.Types Lang.Ast Sem.Compile Spec.Typing Proofs.ValueProofs
     Proofs.FullProofs Proofs.ByteKeys.
Import ListNotations.

Section WithScheme.
Variable sch : scheme.

Definition A_lexpr (e : lexpr) : Prop :=
  forall t, wt_lexpr sch e = Some t -> ty_lexpr sch e = Some t /\ lres_ty t = true.
Definition A_lexprs (l : lexprs) : Prop :=
  forall e r, l = LCons e r -> A_lexpr e.
Definition A_iexpr (e : iexpr) : Prop :=
  forall t, wt_iexpr sch e = Some t -> ty_iexpr sch e = Some t.
Definition A_arg (a : arg) : Prop :=
  forall t, wt_arg sch a = Some t -> ty_arg sch a = Some t.
Definition A_args (a : args) : Prop :=
  forall x r, a = ACons x r -> A_arg x.

Lemma agree_mut :
  (forall e, A_lexpr e) /\ (forall l, A_lexprs l) /\ (forall e, A_iexpr e) /\
  (forall a, A_args a) /\ (forall a, A_arg a).
Proof.
  apply ast_mutind.
  - intros op items IH t H. destruct (wt_combining_inv sch op items t H) as (e0 & rest & -> & Hall).
    exact (IH e0 rest eq_refl t (proj1 (wt_lcons_inv sch e0 rest t Hall))).
  - intros lhs IH op t H. destruct (wt_cmp_inv sch lhs op t H) as (tl & El & Hcase).
    cbn [ty_lexpr]. rewrite (IH tl El). split; [exact (ty_cmp_agree sch lhs op t tl H El)|].
    destruct Hcase as [(_ & _ & ->)|(_ & _ & _ & ->)]; [destruct (Nat.eqb _ 0)|]; reflexivity.
  - intros e IH. exact IH.
  - intros e IH. exact IH.
  - intros q a IH t H. destruct (wt_quant_index_inv sch q a t H) as (-> & _). split; reflexivity.
  - intros q a IH t H. destruct (wt_quant_logical_inv sch q a t H) as (-> & _). split; reflexivity.
  - intros e r H; discriminate.
  - intros e IHe r IHr e' r' H. injection H as <- <-. exact IHe.
  - intros f idx t H. cbn [wt_iexpr ty_iexpr] in *.
    destruct (field_ty sch f) as [t0|]; [|discriminate]. cbn. now rewrite <- ty_index_ok_eq.
  - intros fn a IH idx t H. destruct (wt_call_inv sch fn a idx t H) as (d & ret & Ed & _ & Har & Hsig & Hne & Hidx).
    destruct (call_ty_agree sch fn a d ret Ed Har Hsig Hne IH) as (_ & Htc).
    cbn [ty_iexpr]. fold (ty_call sch fn a). now rewrite Htc, <- ty_index_ok_eq.
  - intros x r H; discriminate.
  - intros x IHx r IHr x' r' H. injection H as <- <-. exact IHx.
  - intros e IH. exact IH.
  - intros r t H. exact H.
  - intros e IH t H. exact (proj1 (IH t H)).
Qed.

Lemma wt_ty_lexpr e t : wt_lexpr sch e = Some t -> ty_lexpr sch e = Some t.
Proof. intros H. exact (proj1 (proj1 agree_mut e t H)). Qed.
Lemma wt_lres e t : wt_lexpr sch e = Some t -> t = TBool \/ t = TArray TBool.
Proof.
  intros H. pose proof (proj2 (proj1 agree_mut e t H)) as L.
  destruct t as [| | | |[]|]; try discriminate; auto.
Qed.
Lemma wt_ty_iexpr e t : wt_iexpr sch e = Some t -> ty_iexpr sch e = Some t.
Proof. exact (proj1 (proj2 (proj2 agree_mut)) e t). Qed.
Lemma wt_ty_arg a t : wt_arg sch a = Some t -> ty_arg sch a = Some t.
Proof. exact (proj2 (proj2 (proj2 (proj2 agree_mut))) a t). Qed.

Lemma wt_lexprs_app t l : forall e,
  wt_lexprs sch t (lexprs_of_list l) = true -> wt_lexpr sch e = Some t ->
  wt_lexprs sch t (lexprs_of_list (l ++ [e])) = true.
Proof.
  induction l as [|x l IH]; intros e Hl He; cbn [app lexprs_of_list] in *.
  - cbn [wt_lexprs]. now rewrite He, ty_eqb_refl.
  - destruct (wt_lcons_inv sch _ _ _ Hl) as (Hx & Hr). cbn [wt_lexprs]. rewrite Hx, ty_eqb_refl. now apply IH.
Qed.

Lemma lexprs_of_to_list l : lexprs_of_list (lexprs_to_list l) = l.
Proof. induction l as [|e r IH]; cbn; [reflexivity|now rewrite IH]. Qed.

End WithScheme.
