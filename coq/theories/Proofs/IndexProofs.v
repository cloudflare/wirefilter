(* The three compilation strategies of IndexExpr::compile_with agree with
   [select] of the specification on well-typed values. *)
From Coq Require Import List Lia.
From WF Require Import Lang.Types Lang.Ast Lang.Context Sem.Compile Spec.Denote Spec.Typing
     Proofs.ValueProofs.
Import ListNotations.

Lemma simplify_noeach idx : map_each_count idx = 0%nat -> simplify_indexes idx = idx.
Proof.
  induction idx as [|i r IH]; intros H; [reflexivity|].
  rewrite mec_cons in H. destruct (index_is_each i) eqn:E; [discriminate|].
  cbn [simplify_indexes]. destruct i; try discriminate E; destruct r; try reflexivity; f_equal; apply IH; exact H.
Qed.

Lemma last_each_split idx : last_is_each idx = true -> exists p, idx = p ++ [IEach] /\ simplify_indexes idx = p.
Proof.
  induction idx as [|i r IH]; intros H; [discriminate|].
  destruct r as [|j r'].
  - cbn in H. destruct i; try discriminate H. exists []. split; reflexivity.
  - destruct (IH H) as (p & Hp & Hs). exists (i :: p). split; [cbn; now rewrite Hp|].
    rewrite <- Hs. now destruct i.
Qed.

(* a path whose only [*] comes last: a path without [*] to a container, then its elements *)
Lemma trailing_each idx t0 t :
  last_is_each idx = true -> map_each_count idx = 1%nat -> ty_index_ok t0 idx = Some t ->
  exists p s, idx = p ++ [IEach] /\ simplify_indexes idx = p /\ map_each_count p = 0%nat /\
              ty_index_ok t0 p = Some s /\ ty_next s = Some t.
Proof.
  intros El En Hidx. destruct (last_each_split idx El) as (p & -> & Hs). exists p.
  rewrite mec_app in En. rewrite ty_index_ok_app in Hidx. destruct (ty_index_ok t0 p) as [s|]; [|discriminate].
  exists s. repeat split; auto using ty_index_ok_each. cbn in En. lia.
Qed.

(* without [*] a path selects at most one value *)
Lemma select_plain base idx : map_each_count idx = 0%nat -> forall l, select base idx <> SMany l.
Proof. unfold select. intros ->. destruct base as [v|]; [destruct (get_path v idx)|]; discriminate. Qed.

(* evaluating a comparer over typed elements *)
Lemma mapM_holds (f : value -> M bool) (holds : value -> option bool) t xs :
  (forall x, has_type x t = true -> exists b, f x = Some b /\ holds x = Some b) ->
  Forall (fun x => has_type x t = true) xs ->
  exists bs, mapM f xs = Some bs /\ all_some (map holds xs) = Some bs.
Proof.
  intros Hc Hall. induction Hall as [|x xs Hx _ IH]; [exists []; split; reflexivity|].
  destruct (Hc x Hx) as (b & H1 & H2). destruct IH as (bs & H3 & H4).
  exists (b :: bs). cbn. rewrite H1, H3, H2, H4. split; reflexivity.
Qed.

Lemma bools_typed l : Forall (fun x => has_type x TBool = true) l ->
  exists bs, mapM cast_bool l = Some bs /\ bools_of l = Some bs.
Proof.
  apply mapM_holds. intros x Hx. apply has_type_prim_inv in Hx. destruct Hx as (b & ->). now exists b.
Qed.

Section Strategies.
Variable c : ctx.
Variable src : ctx -> M (option value).
Variables (v : value) (t0 : ty).
Hypothesis Hsrc : src c = Some (Some v).
Hypothesis Hv : has_type v t0 = true.

Lemma compile_one_with_spec idx t default comp :
  ty_index_ok t0 idx = Some t -> map_each_count idx = 0%nat ->
  compile_one_with src idx default comp c = match get_path v idx with Some x => comp x c | None => Some default end.
Proof.
  intros Hidx En. unfold compile_one_with. rewrite Hsrc, (simplify_noeach idx En).
  now destruct (get_nested_typed idx v t0 t Hv Hidx En) as (-> & _).
Qed.

Lemma compile_vec_with_spec idx p s comp :
  simplify_indexes idx = p -> ty_index_ok t0 p = Some s -> map_each_count p = 0%nat ->
  compile_vec_with src idx comp c =
  match get_path v p with Some x => items <- v_iter x ;; mapM (fun it => comp it c) items | None => Some [] end.
Proof.
  intros Hs Hp En. unfold compile_vec_with. rewrite Hsrc, Hs.
  now destruct (get_nested_typed p v t0 s Hv Hp En) as (-> & _).
Qed.

Lemma compile_iter_with_spec idx t comp :
  ty_index_ok t0 idx = Some t -> idx <> [] ->
  compile_iter_with src idx comp c = mapM (fun it => comp it c) (flatten idx v).
Proof.
  intros Hidx Hne. unfold compile_iter_with. now rewrite Hsrc, (mei_collect_is_flatten idx v t0 t Hne Hv Hidx).
Qed.

End Strategies.

Section WithCtx.
Variable c : ctx.

(* What [compile_with] computes, in terms of the specification's [select]. *)
Lemma compile_with_spec (src : ctx -> M (option value)) base t0 idx t default comp holds :
  src c = Some base ->
  (forall v, base = Some v -> has_type v t0 = true) ->
  ty_index_ok t0 idx = Some t ->
  (forall x, has_type x t = true -> exists b, comp x c = Some b /\ holds x = Some b) ->
  match compile_with src idx default comp with
  | COne f =>
      map_each_count idx = 0%nat /\
      exists b, f c = Some b /\
                match select base idx with
                | SAbsent => b = default
                | SOne x => holds x = Some b
                | SMany _ => False
                end
  | CVec f =>
      map_each_count idx <> 0%nat /\
      exists l xs, f c = Some l /\ select base idx = SMany xs /\ all_some (map holds xs) = Some l
  end.
Proof.
  intros Hsrc Hbase Hidx Hcomp. unfold compile_with, select.
  destruct base as [v|].
  2:{ unfold compile_one_with, compile_vec_with, compile_iter_with.
      destruct (map_each_count idx) as [|[|n]]; [|destruct (last_is_each idx)|]; rewrite Hsrc;
        (split; [easy|]); [exists default|exists [], []..]; now cbn. }
  specialize (Hbase v eq_refl).
  destruct (map_each_count idx) as [|n] eqn:En; cbn [Nat.eqb].
  - (* no [*] *)
    split; [reflexivity|]. rewrite (compile_one_with_spec c src v t0 Hsrc Hbase idx t) by assumption.
    destruct (get_nested_typed idx v t0 t Hbase Hidx En) as (_ & Hx).
    destruct (get_path v idx) as [x|]; [exact (Hcomp x (Hx x eq_refl))|now exists default].
  - (* some [*]: the comparer over the flattened selection *)
    destruct (mapM_holds (fun it => comp it c) holds t (flatten idx v) Hcomp (flatten_typed idx v t0 t Hbase Hidx))
      as (bs & H1 & H2).
    assert (Hne : idx <> []) by (intros ->; discriminate En).
    destruct n; [destruct (last_is_each idx) eqn:El|]; (split; [discriminate|]); exists bs, (flatten idx v);
      (split; [|now split]); try now rewrite (compile_iter_with_spec c src v t0 Hsrc Hbase idx t).
    (* one trailing [*]: the elements of the container before it *)
    destruct (trailing_each idx t0 t El En Hidx) as (p & s & -> & Hs & Ep & Hp & Hn).
    rewrite (compile_vec_with_spec c src v t0 Hsrc Hbase _ p s _ Hs Hp Ep).
    rewrite (flatten_prefix_each p v Ep) in H1.
    destruct (get_nested_typed p v t0 s Hbase Hp Ep) as (_ & Hx).
    destruct (get_path v p) as [x|]; [|exact H1].
    destruct (elems_typed x s t (Hx x eq_refl) Hn) as (-> & _). exact H1.
Qed.

(* a bare container of booleans compiled with compile_vec_with + IsTrue *)
Lemma compile_vec_bools (src : ctx -> M (option value)) base t0 idx t :
  src c = Some base ->
  (forall v, base = Some v -> has_type v t0 = true) ->
  ty_index_ok t0 idx = Some t -> ty_next t = Some TBool ->
  map_each_count idx = 0%nat ->
  exists l, compile_vec_with src idx (fun v _ => cast_bool v) c = Some l /\
            match select base idx with
            | SOne v => bools_of (elems v) = Some l
            | SAbsent => l = []
            | SMany _ => False
            end.
Proof.
  intros Hsrc Hbase Hidx Hn En. unfold select. rewrite En. cbn [Nat.eqb].
  destruct base as [v|]; [|exists []; unfold compile_vec_with; now rewrite Hsrc].
  specialize (Hbase v eq_refl).
  rewrite (compile_vec_with_spec c src v t0 Hsrc Hbase idx idx t _ (simplify_noeach idx En) Hidx En).
  destruct (get_nested_typed idx v t0 t Hbase Hidx En) as (_ & Hx).
  destruct (get_path v idx) as [x|]; [|now exists []].
  destruct (elems_typed x t TBool (Hx x eq_refl) Hn) as (-> & Hall). exact (bools_typed _ Hall).
Qed.

End WithCtx.
