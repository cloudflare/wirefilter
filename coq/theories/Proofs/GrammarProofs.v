(* Every text of the surface grammar (Spec/Grammar.v) is accepted by the parser model with exactly the
   AST the grammar assigns to it: completeness of the parser for rendered filters, for every layout and
   every choice of operator spelling.  One mutual induction over the relations of the grammar, on top of
   the literal round trips (LexProofs), the token-boundary lemmas (LayoutProofs) and the refinement of the
   abstract climbing loop (ClimbText). *)
From Coq Require Import List ZArith Lia Bool String.
From WF Require Import Base.Bytes Sem.RangeSet Lang.Types Lang.Ast Parse.Lex Sem.Compile
     Parse.Parser Parse.Climb Spec.C06 Spec.C07 Spec.Grammar Proofs.ParserCases Proofs.LexProofs
     Proofs.LayoutProofs Proofs.ClimbText Proofs.FuelProofs.
Import ListNotations.
Local Open Scope N_scope.
Local Notation length := List.length (only parsing).

(* after a complete simple expression: end of input, white space, `)`, `,`, or a symbolic logical operator *)
Definition atom_follow (r : bytes) : Prop :=
  match r with [] => True | b :: _ => is_space b = true \/ b = 41 \/ b = 38 \/ b = 124 \/ b = 94 \/ b = 44 end.
(* after a field name inside a comparison: additionally the first byte of a symbolic comparison operator *)
Definition name_follow (r : bytes) : Prop :=
  match r with
  | [] => True
  | b :: _ => is_space b = true \/ b = 41 \/ b = 38 \/ b = 124 \/ b = 94 \/ b = 44 \/ b = 61 \/ b = 33 \/ b = 62 \/ b = 60 \/ b = 126
  end.

Lemma atom_name_follow r : atom_follow r -> name_follow r.
Proof. destruct r as [|b r]; [trivial|]. unfold atom_follow, name_follow. tauto. Qed.

(* [H] lists the bytes that may come next; the goal is a closed test on that byte: one case for each *)
Ltac follow_solve H :=
  cbn in H; rewrite ?space_cases in H; repeat destruct H as [H|H]; subst; cbn; repeat split; try reflexivity; try discriminate.

Definition ident_stop (r : bytes) : Prop :=
  match r with [] => True | b :: _ => (is_ascii b && is_ident_char b) = false /\ b <> 46 end.
Definition second_ok (tl : bytes) : Prop := match tl with b2 :: _ => b2 <> 34 /\ b2 <> 35 | [] => True end.

Lemma name_follow_facts r : name_follow r -> (ident_stop r /\ second_ok r) /\ starts_with [91] r = None.
Proof.
  destruct r as [|b r]; [repeat split|]. cbn [name_follow ident_stop second_ok starts_with]. intros H.
  assert (((is_ascii b && is_ident_char b) = false /\ b <> 46) /\ (b <> 34 /\ b <> 35) /\ (91 =? b) = false) as (? & ? & ->)
    by (unfold is_space, is_ascii, is_ident_char, is_alnum, is_digit in *; lia).
  auto.
Qed.
Lemma follow_no_paren_kw r : name_follow r -> True.
Proof. trivial. Qed.

Lemma ws_then (P : bytes -> Prop) ws c x :
  layout_ws ws -> (forall b y, is_space b = true \/ b = c -> P (b :: y)) -> P (ws ++ c :: x).
Proof. intros [|b ws' Hb _] HP; apply HP; [now right|left; now apply space_cases]. Qed.

Lemma ident_go_text name : ident_text name -> forall r fuel, ident_stop r -> (length name < fuel)%nat ->
  ident_go fuel (name ++ r) = LOk tt r.
Proof.
  induction 1 as [seg Hne Hs|seg r0 Hne Hs Hr0 IH]; intros r [|f] Hr Hf; try lia; cbn [ident_go].
  - rewrite take_while_go_app; [|assumption|destruct r; [exact I|apply Hr]].
    destruct seg as [|b seg]; [congruence|]. destruct r as [|c r]; [reflexivity|].
    destruct Hr as [_ Hc]. by_bits_default c.
  - rewrite <- app_assoc. rewrite take_while_go_app; [|assumption|reflexivity].
    destruct seg as [|b seg]; [congruence|]. apply IH; [assumption|].
    rewrite app_length in Hf. cbn [List.length] in Hf. lia.
Qed.

Lemma ident_name_roundtrip name r : ident_text name -> ident_stop r -> lex_ident_name (name ++ r) = LOk name r.
Proof.
  intros Hn Hr. unfold lex_ident_name. rewrite (ident_go_text name Hn r) by (rewrite ?app_length; auto; lia).
  cbn [lbind]. now rewrite LexIntProofs.firstn_span.
Qed.

Lemma ident_text_first name : ident_text name -> exists b t, name = b :: t /\ ident_byte b.
Proof. destruct 1 as [seg Hne Hs|seg r0 Hne Hs _]; (destruct Hs as [|b seg Hb _]; [congruence|]); eexists _, _; (split; [reflexivity|assumption]). Qed.

(* the bytes a token may begin and end with *)
Definition tok_byte (b : N) : Prop := visible b /\ b <> 61 /\ b <> 125.

Lemma ident_byte_tok b : ident_byte b -> tok_byte b /\ is_space b = false /\ b <> 34 /\ b <> 35 /\ b <> 40 /\ b <> 33.
Proof.
  unfold ident_byte, tok_byte, visible, is_ascii, is_ident_char, is_alnum, is_digit, is_ws_ascii, is_space. lia.
Qed.

Lemma starts_with_ne x p b t : b <> x -> starts_with (x :: p) (b :: t) = None.
Proof. intros H. cbn [starts_with]. destruct (N.eqb_spec x b); congruence. Qed.

Lemma starts_with_app_none p : Forall ident_byte p -> forall name r,
  starts_with p name = None -> ident_stop r -> starts_with p (name ++ r) = None.
Proof.
  induction 1 as [|x p Hx Hp IH]; intros name r Hn Hr; [destruct name; discriminate Hn|].
  destruct name as [|y n']; cbn [app].
  - destruct r as [|b r]; [reflexivity|]. apply starts_with_ne. intros ->. destruct Hr. unfold ident_byte in Hx. congruence.
  - cbn [starts_with] in Hn |- *. destruct (x =? y); [now apply IH|reflexivity].
Qed.

(* a field name is not read as `(`, `not`/`!`, `any(`/`all(` *)
Lemma name_not_special name r : ident_text name -> kw_free name -> ident_stop r ->
  starts_with [40] (name ++ r) = None /\ lex_alts unary_ops (name ++ r) = None /\ lex_quant_call (name ++ r) = None.
Proof.
  intros Hn (K1 & K2 & K3) Hr.
  assert (E : forall kw, Forall ident_byte kw -> starts_with kw name = None -> starts_with kw (name ++ r) = None)
    by (intros kw B K; exact (starts_with_app_none kw B name r K Hr)).
  unfold lex_quant_call, quant_ops, unary_ops. cbn [lex_alts].
  rewrite (E (Parser.s "not")), (E (Parser.s "any")), (E (Parser.s "all")) by first [assumption|repeat constructor].
  destruct (ident_text_first name Hn) as (b & t & -> & Hb). destruct (ident_byte_tok b Hb) as (_ & _ & _ & _ & H40 & H33).
  change (Parser.s "!") with [33]. cbn [app]. now rewrite !starts_with_ne.
Qed.

Lemma name_second name X : ident_text name -> second_ok X ->
  exists b1 tl, name ++ X = b1 :: tl /\ ident_byte b1 /\ second_ok tl.
Proof.
  intros Hn HX.
  assert (Hseg : forall seg Y, Forall ident_byte seg -> second_ok Y -> second_ok (seg ++ Y)).
  { intros seg Y [|b2 ? Hb2 _] HY; [exact HY|]. cbn. destruct (ident_byte_tok b2 Hb2) as (_ & _ & A & B & _). auto. }
  destruct Hn as [seg Hne Hs|seg r0 Hne Hs _]; (destruct Hs as [|b1 seg' Hb1 Hs']; [congruence|]).
  - exists b1, (seg' ++ X). auto.
  - exists b1, ((seg' ++ 46 :: r0) ++ X). repeat split; [exact Hb1|].
    rewrite <- app_assoc. apply Hseg; [exact Hs'|cbn; split; discriminate].
Qed.

(* what may follow a literal: nothing that continues a number, an address or a hex string *)
Definition lit_follow (r : bytes) : Prop :=
  int_follow_ok r /\ ip_follow_ok r /\ hexpairs_follow_ok r /\ no_dotdot_next r /\ listname_follow_ok r.
Lemma atom_lit_follow r : atom_follow r -> lit_follow r.
Proof. destruct r as [|b r]; [repeat split|]. intros H. follow_solve H. Qed.
(* inside a brace list: white space or the closing brace *)
Definition item_follow (r : bytes) : Prop :=
  match r with [] => True | b :: _ => is_space b = true \/ b = 125 end.
Lemma item_lit_follow r : item_follow r -> lit_follow r.
Proof. destruct r as [|b r]; [repeat split|]. intros H. follow_solve H. Qed.

Lemma lit_int_roundtrip lit z r : lit_text TInt lit (RInt z) -> lit_follow r -> lex_int (lit ++ r) = LOk z r.
Proof.
  intros H (Hi & _). inversion H; subst. now apply int_roundtrip.
Qed.
Lemma lit_bytes_roundtrip lit b f r : lit_text TBytes lit (RBytes b f) -> lit_follow r -> lex_bytes (lit ++ r) = LOk (b, f) r.
Proof.
  intros H (_ & _ & Hh & _). inversion H; subst;
    [apply quoted_roundtrip|apply raw_roundtrip_utf8|apply hexpairs_roundtrip]; assumption.
Qed.
Lemma lit_roundtrip t lit v r : lit_text t lit v -> lit_follow r -> lex_rhs t (lit ++ r) = LOk v r.
Proof.
  intros H Hr. pose proof H as H'. destruct H; cbn [lex_rhs]; unfold lmap.
  1: rewrite (lit_int_roundtrip _ _ r H' Hr). 2-4: rewrite (lit_bytes_roundtrip _ _ _ r H' Hr).
  5: rewrite (addr_roundtrip t a r) by (assumption || apply Hr). all: reflexivity.
Qed.

Lemma visible_nospace b : visible b -> is_space b = false.
Proof. unfold visible, is_ws_ascii, is_space. lia. Qed.
Lemma skip_space_tok t r : tok_start t -> skip_space (t ++ r) = t ++ r.
Proof. destruct t as [|b t]; [intros []|]. intros [Hv _]. cbn [app skip_space]. now rewrite (visible_nospace b Hv). Qed.
Lemma tok_start_app x y : tok_start x -> tok_start (x ++ y).
Proof. destruct x; [intros []|]. cbn. auto. Qed.
Lemma tok_start_not_close t x : tok_start t -> starts_with [125] (t ++ x) = None.
Proof. destruct t as [|b t]; [intros []|]. intros (_ & _ & Hb). now apply starts_with_ne. Qed.
Lemma tok_end_app x y : tok_end y -> tok_end (x ++ y).
Proof.
  unfold tok_end. rewrite rev_app_distr. destruct (rev y) as [|b r]; [intros []|]. cbn [app]. auto.
Qed.
Lemma tok_end_cons b y : tok_end y -> tok_end (b :: y).
Proof. exact (tok_end_app [b] y). Qed.
Lemma tok_end_opt x y : tok_end x -> y = [] \/ tok_end y -> tok_end (x ++ y).
Proof. intros Hx [->|Hy]; [now rewrite app_nil_r|now apply tok_end_app]. Qed.
#[local] Hint Resolve tok_start_app tok_end_app tok_end_cons : tok.
#[local] Hint Extern 1 (tok_end [_]) => split; reflexivity : tok.

Lemma tok_bytes_ends t : t <> [] -> Forall tok_byte t -> tok_start t /\ tok_end t.
Proof.
  intros Hne H. split; [destruct H; [congruence|assumption]|].
  unfold tok_end. apply Forall_rev in H. destruct (rev t) as [|b l] eqn:E.
  - apply Hne. now rewrite <- (rev_involutive t), E.
  - inversion H as [|? ? [Hb _] _]. exact Hb.
Qed.

Lemma ident_text_ends name : ident_text name -> tok_start name /\ tok_end name.
Proof.
  intros H. apply tok_bytes_ends; [destruct (ident_text_first name H) as (b & t & -> & _); discriminate|].
  assert (Hseg : forall seg, Forall ident_byte seg -> Forall tok_byte seg)
    by (apply Forall_impl; intros b Hb; apply (ident_byte_tok b Hb)).
  induction H as [seg _ Hs|seg r0 _ Hs _ IH]; [now apply Hseg|].
  apply Forall_app. split; [now apply Hseg|]. constructor; [repeat split; discriminate|exact IH].
Qed.

Lemma no_eq_cons b y : b <> 61 -> no_eq_follows (b :: y).
Proof. intros H. other_byte b I. Qed.
Lemma no_eq_ws_tok ws lit r : layout_ws ws -> tok_start lit -> no_eq_follows (ws ++ lit ++ r).
Proof.
  intros Hw Ht. destruct lit as [|b lit]; [destruct Ht|]. cbn [app]. apply ws_then; [exact Hw|].
  intros c y [Hc| ->]; apply no_eq_cons; [intros ->; discriminate Hc|apply Ht].
Qed.

(* integers in every form and quoted strings begin and end with a visible character: the side conditions of the
   grammar hold *)
Lemma digit_tok u d : (0 <= d < 16)%Z -> tok_byte (digit_char u d).
Proof.
  intros H. pose proof (digit_char_lt128 u d H) as L. pose proof (digit_char_hex u d H) as X.
  unfold tok_byte, visible, is_ws_ascii. unfold is_hexdigit, Lex.is_digit in X. lia.
Qed.
Lemma print_radix_tok radix u v : (2 <= radix <= 16)%Z -> (0 <= v)%Z -> Forall tok_byte (print_radix radix v u).
Proof.
  intros Hr Hv. apply print_radix_forall; [assumption..|]. intros d Hd. apply digit_tok. lia.
Qed.
Lemma print_int_ends f v : int_form_ok f v -> tok_start (print_int f v) /\ tok_end (print_int f v).
Proof.
  intros Hok. apply tok_bytes_ends; [destruct (print_int_head f v Hok) as (c & t & -> & _); discriminate|].
  assert (H0 : forall n, Forall tok_byte (repeat 48 n)) by (intros n; apply Forall_forall; intros c ->%repeat_spec; repeat split; discriminate).
  destruct f as [|u pad|pad]; cbn [print_int app]; [unfold print_dec; destruct (v <? 0)%Z eqn:E|..];
    repeat first [apply print_radix_tok; cbn in Hok; lia | apply Forall_app; split; [apply H0|] | constructor; [repeat split; discriminate|]].
Qed.
Lemma print_quoted_ends l : tok_start (print_quoted l) /\ tok_end (print_quoted l).
Proof. unfold print_quoted. split; [repeat split; discriminate|auto with tok]. Qed.

Lemma idx_ty t0 txt idx t : idx_text t0 txt idx t -> ty_index t0 idx = Some t.
Proof. induction 1; cbn [ty_index]; auto. Qed.

Lemma idx_text_first t0 txt idx t x : idx_text t0 txt idx t -> txt = [] \/ exists y, txt ++ x = 91 :: y.
Proof. destruct 1; [now left|right; eexists; reflexivity..]. Qed.

Lemma idx_name_end t0 itxt idx t r : idx_text t0 itxt idx t -> name_follow r -> ident_stop (itxt ++ r) /\ second_ok (itxt ++ r).
Proof. intros Hi Hr. destruct Hi; [apply (name_follow_facts r Hr)|..]; repeat split; discriminate || reflexivity. Qed.

(* The four kinds of index access read alike: `[`, layout, a token that [lex_field_index] reads as some [ri] when
   layout and `]` follow, layout, `]`. *)
Lemma idx_text_access_ind (P : ty -> bytes -> list index -> ty -> Prop) :
  (forall t, P t [] [] t) ->
  (forall t0 e ws1 tok ri ws2 rest idx t, layout_ws ws1 -> layout_ws ws2 -> tok_start tok ->
     (forall y, lex_field_index (tok ++ ws2 ++ 93 :: y) = LOk ri (ws2 ++ 93 :: y)) -> index_step t0 ri = Some e ->
     P e rest idx t -> P t0 (91 :: ws1 ++ tok ++ ws2 ++ 93 :: rest) (index_of_raw ri :: idx) t) ->
  forall t0 txt idx t, idx_text t0 txt idx t -> P t0 txt idx t.
Proof.
  intros Hnil Hacc. induction 1 as [t|e ws1 f n ws2 rest idx t H1 H2 Hn Hf _ IH|e ws1 l ws2 rest idx t H1 H2 Hl Hu _ IH
                                    |e ws1 ws2 rest idx t H1 H2 _ IH|e ws1 ws2 rest idx t H1 H2 _ IH]; [apply Hnil|..].
  - apply (Hacc (TArray e) e ws1 (print_int f n) (RIArr (Z.to_N n))); auto; [apply (print_int_ends f n Hf)|].
    intros y. apply index_roundtrip; [assumption..|]. apply ws_then; [assumption|]. intros b z H. follow_solve H.
  - apply (Hacc (TMap e) e ws1 (print_quoted l) (RIKey (map snd l))); auto; [apply print_quoted_ends|].
    intros y. now rewrite map_key_utf8_only, Hu.
  - apply (Hacc (TArray e) e ws1 [42] RIEach); auto; repeat split; discriminate.
  - apply (Hacc (TMap e) e ws1 [42] RIEach); auto; repeat split; discriminate.
Qed.

Lemma idx_text_end t0 itxt idx t : idx_text t0 itxt idx t -> itxt = [] \/ tok_end itxt.
Proof.
  induction 1 as [|? ? ? ? ? ? rest ? ? _ _ _ _ _ IH] using idx_text_access_ind; [now left|right].
  change (93 :: rest) with ([93] ++ rest). auto 6 using tok_end_opt with tok.
Qed.

Section Main.
Variables (sch : scheme) (st : settings).

Lemma lex_indexes_text t0 txt idx t : idx_text t0 txt idx t ->
  forall r acc fuel, starts_with [91] r = None -> (List.length txt < fuel)%nat ->
  lex_indexes sch st fuel (txt ++ r) t0 acc = LOk (rev acc ++ idx) r.
Proof.
  induction 1 as [t|t0 e ws1 tok ri ws2 rest idx t H1 H2 Hs Hlex Hst IH] using idx_text_access_ind;
    intros r acc [|fu] Hr Hfu; try (cbn in Hfu; lia); cbn [app lex_indexes].
  - rewrite Hr. now rewrite app_nil_r.
  - cbn [starts_with]. rewrite N.eqb_refl, <- !app_assoc. cbn [app].
    rewrite skip_space_ws, (skip_space_tok _ _ Hs), Hlex by assumption. cbn [lbind]. rewrite (expect_after_ws 93 ws2 _ eq_refl H2). cbn [lbind]. rewrite Hst.
    rewrite IH; [cbn [rev]; now rewrite <- app_assoc|assumption|].
    cbn [List.length] in Hfu. rewrite !app_length in Hfu. cbn [List.length] in Hfu. lia.
Qed.

Lemma items_tail_follow {A} (item : bytes -> A -> Prop) txt l x : items_tail item txt l -> item_follow (txt ++ x).
Proof.
  destruct 1 as [ws Hw|ws t a rest l Hw Hne _ _ _]; rewrite <- app_assoc.
  - apply (ws_then item_follow ws 125 x Hw). intros b y H. exact H.
  - destruct Hw as [|c ws Hc _]; [congruence|]. left. now apply space_cases.
Qed.

Section Items.
Context {A : Type} (item : bytes -> A -> Prop) (lex1 : bytes -> lres A).
Hypothesis item_lex : forall t a r, item t a -> item_follow r -> lex1 (t ++ r) = LOk a r.

Lemma brace_items_item ws t a y acc fuel : layout_ws ws -> item t a -> tok_start t -> item_follow y ->
  brace_items (S fuel) lex1 (ws ++ t ++ y) acc = brace_items fuel lex1 y (a :: acc).
Proof.
  intros Hw Hi Hs Hy. cbn [brace_items].
  now rewrite skip_space_ws, (skip_space_tok t), (tok_start_not_close t), (item_lex t a y) by assumption.
Qed.
Lemma brace_items_close ws r acc fuel : layout_ws ws -> brace_items (S fuel) lex1 (ws ++ 125 :: r) acc = LOk (rev acc) r.
Proof. intros Hw. cbn [brace_items]. now rewrite skip_space_ws by assumption. Qed.

Lemma brace_items_tail txt l : items_tail item txt l -> forall r acc fuel, (List.length txt < fuel)%nat ->
  brace_items fuel lex1 (txt ++ r) acc = LOk (rev acc ++ l) r.
Proof.
  induction 1 as [ws Hw|ws t a rest l Hw Hne Hi Hs Ht IH]; intros r acc [|fu] Hf; try lia; rewrite <- !app_assoc.
  - rewrite (brace_items_close ws r) by assumption. now rewrite app_nil_r.
  - rewrite (brace_items_item ws t a) by eauto using items_tail_follow.
    rewrite IH; [cbn [rev]; now rewrite <- app_assoc|].
    rewrite !app_length in Hf. destruct t; [destruct Hs|]. cbn [List.length] in Hf. lia.
Qed.

Lemma brace_list_text txt l r : list_text item txt l -> lex_brace_list lex1 (txt ++ r) = LOk l r.
Proof.
  destruct 1 as [ws Hw|ws t a rest l Hw Hi Hs Ht]; unfold lex_brace_list, expect; cbn [app starts_with];
    rewrite N.eqb_refl; cbn [lbind]; rewrite <- !app_assoc.
  - now apply brace_items_close.
  - rewrite (brace_items_item ws t a) by eauto using items_tail_follow.
    rewrite (brace_items_tail rest l Ht r [a]); [reflexivity|]. cbn [List.length]. rewrite !app_length. lia.
Qed.
End Items.

Lemma int_item_lex t a r : int_item_text t a -> item_follow r -> lex_int_range (t ++ r) = LOk a r.
Proof.
  intros H Hr. destruct (item_lit_follow r Hr) as (Hi & _ & _ & Hd & _).
  destruct H; [now apply int_single_as_range|now apply int_range_roundtrip].
Qed.
Lemma ip_item_lex t a r : ip_item_text t a -> item_follow r -> lex_ip_range (t ++ r) = LOk a r.
Proof.
  intros H Hr. destruct (item_lit_follow r Hr) as (_ & Hp & _). destruct H; rewrite <- ?app_assoc.
  - now apply host_in_list.
  - now apply cidr_roundtrip.
  - now apply ip_range_roundtrip.
Qed.
Lemma bytes_item_lex t a r : bytes_item_text t a -> item_follow r -> lex_bytes (t ++ r) = LOk a r.
Proof. intros H Hr. destruct a as [b f]. exact (lit_bytes_roundtrip t b f r H (item_lit_follow r Hr)). Qed.

Definition kcls (K : bool) (t : ty) : bool :=
  if K then match t with TArray TBool => true | _ => false end else match t with TBool => true | _ => false end.
Lemma kcls_eq K t : kcls K t = true -> t = kty K.
Proof. destruct K, t as [| | | |e|e]; try discriminate; try reflexivity. destruct e; try discriminate; reflexivity. Qed.
Lemma kcls_kty K : kcls K (kty K) = true.
Proof. destruct K; reflexivity. Qed.
Lemma kcls_comb K a b : kcls K a = true -> kcls K b = true -> types_combinable a b = true.
Proof. intros Ha Hb. apply kcls_eq in Ha, Hb. subst. destruct K; reflexivity. Qed.

Lemma index_expr_field f d name i t0 itxt idx t r :
  ident_text name -> scheme_get sch name = Some (IdField i) -> field_ty sch i = Some t0 ->
  idx_text t0 itxt idx t -> name_follow r ->
  okf (lex_index_expr sch st f d (name ++ itxt ++ r)) (IField i idx) r.
Proof.
  intros Hn Hg Hty Hi Hr. destruct f as [|f]; [now left|]. right. cbn [lex_index_expr].
  rewrite (ident_name_roundtrip name _ Hn (proj1 (idx_name_end _ _ _ _ r Hi Hr))), Hg, Hty.
  rewrite (lex_indexes_text t0 itxt idx t Hi r [] _ (proj2 (name_follow_facts r Hr))); [reflexivity|].
  rewrite app_length. lia.
Qed.

Lemma layout_first_follow ws x : layout_ws ws -> ws <> [] -> name_follow (ws ++ x) /\ atom_follow (ws ++ x).
Proof. intros [|c ws' Hc%space_cases _] Hne; [congruence|]. split; left; exact Hc. Qed.

Lemma spelling_in (sp a1 a2 : bytes) sym : (sp = a1 /\ sym = false) \/ (sp = a2 /\ sym = true) -> In sp [a1; a2].
Proof. intros [[-> _]|[-> _]]; cbn; auto. Qed.

(* a symbolic spelling of a comparison operator begins with a byte that may follow a name *)
Lemma op_spelling_follow c sp y : op_spelling c sp true -> name_follow (sp ++ y).
Proof.
  intros (a1 & a2 & Hin & [[_ E]|[-> _]]); [discriminate E|]. revert y.
  apply (proj1 (Forall_forall (fun e => forall y, name_follow (snd (fst e) ++ y)) comparison_aliases)) with (x := (a1, a2, c)); [|exact Hin].
  repeat apply Forall_cons; [..|apply Forall_nil]; intros y; lazy; auto 12.
Qed.

Lemma cmp_text_op t sp sym lit c : cmp_text_s sch t sp sym lit c ->
  c <> CIsTrue /\ cmp3 t = true /\ (sym = true -> forall y, name_follow (sp ++ y)).
Proof.
  intros [? ? ? ? ? H|]; [destruct H as [? ? ? ? ? ? Hsp| ? ? ? ? Hsp| | | |]|];
    repeat split; try discriminate; try assumption; intros -> y; exact (op_spelling_follow _ _ y Hsp).
Qed.

Lemma brace_start_not_dollar {A} (item : bytes -> A -> Prop) txt l x : list_text item txt l -> starts_with [36] (txt ++ x) = None.
Proof. destruct 1; reflexivity. Qed.

Lemma cmp_parses t sp sym lit c : cmp_text_s sch t sp sym lit c ->
  forall f d lhs ws1 ws2 r, ty_iexpr sch lhs = Some t -> layout_ws ws1 -> layout_ws ws2 -> tok_start lit -> atom_follow r ->
  lex_with_lhs sch st (S f) d (ws1 ++ sp ++ ws2 ++ lit ++ r) lhs = LOk (EComparison lhs c) r.
Proof.
  intros H f d lhs ws1 ws2 r Hty H1 H2 Hs Hr. pose proof (atom_lit_follow r Hr) as Hlf.
  pose proof (no_eq_ws_tok ws2 lit r H2 Hs) as Hne.
  destruct H as [t sp sym lit c H|t name li Hp Hgn Hli];
    [destruct H as [t o sp sym lit v (a1 & a2 & Hin & Hsp) Hp Hl|sp sym lit z (a1 & a2 & Hin & Hsp) Hl|lit b fm Hl
                    |txt l Hl|txt l Hl|txt l Hl]|].
  4-6: rewrite (in_layout sch st f d lhs _ ws1 ws2 (txt ++ r) Hty eq_refl H1 H2), (skip_space_tok txt r Hs), (brace_start_not_dollar _ _ _ r Hl).
  - now rewrite (ordering_token sch st f d lhs t a1 a2 o sp ws1 ws2 (lit ++ r) Hin (spelling_in _ _ _ _ Hsp) Hty Hp H1 H2 Hne),
      (skip_space_tok lit r Hs), (lit_roundtrip _ _ _ r Hl Hlf).
  - now rewrite (band_token sch st f d lhs a1 a2 sp ws1 ws2 (lit ++ r) Hin (spelling_in _ _ _ _ Hsp) Hty H1 H2 (or_introl Hne)),
      (skip_space_tok lit r Hs), (lit_int_roundtrip _ _ r Hl Hlf).
  - now rewrite (contains_layout sch st f d lhs ws1 ws2 _ Hty H1 H2), (skip_space_tok lit r Hs), (lit_bytes_roundtrip _ _ _ r Hl Hlf).
  - pose proof (brace_list_text int_item_text lex_int_range int_item_lex txt l r Hl) as E. unfold range in E. now rewrite E.
  - now rewrite (brace_list_text ip_item_text lex_ip_range ip_item_lex txt l r Hl).
  - now rewrite (brace_list_text bytes_item_text lex_bytes bytes_item_lex txt l r Hl).
  - rewrite (in_layout sch st f d lhs _ ws1 ws2 ((36 :: name) ++ r) Hty Hp H1 H2), (skip_space_tok (36 :: name) r Hs).
    cbn [app starts_with]. rewrite N.eqb_refl, (list_name_accept name r Hgn (proj2 (proj2 (proj2 (proj2 Hlf))))). cbn [lbind].
    now rewrite Hli.
Qed.

Lemma first_chars_hd b1 tl : b1 < 128 -> exists c3, first_chars (b1 :: tl) = (Some b1, hd_error tl, c3).
Proof.
  intros H. unfold first_chars. rewrite (next_char_ascii b1 tl H). destruct tl as [|b2 s]; [eexists; reflexivity|].
  unfold next_char at 1. pose proof (char_len_pos b2). destruct (char_len b2) as [|n]; [lia|]. cbv zeta. cbn [firstn hd_error].
  destruct (next_char _) as [[c3 ?]|]; eexists; reflexivity.
Qed.

Lemma hd_not_quote tl : second_ok tl -> match hd_error tl with Some 35 | Some 34 => true | _ => false end = false.
Proof.
  destruct tl as [|b ?]; [reflexivity|]. intros [A B]. cbn [hd_error]. other_byte b (eq_refl false).
Qed.

(* FunctionCallArgExpr::lex_with chooses by the first characters; [p]: whether an error of the index expression is final *)
Lemma lex_arg_first f d b1 tl : b1 < 128 -> exists p,
  lex_arg sch st (S f) d (b1 :: tl) =
  if (b1 =? 34) || ((b1 =? 114) && (match hd_error tl with Some 35 | Some 34 => true | _ => false end))
  then lmap (fun p => ALit (RBytes (fst p) (snd p))) (lex_bytes (b1 :: tl))
  else if (b1 =? 40)
          || (match lex_alts unary_ops (b1 :: tl) with Some _ => true | None => false end)
          || (match lex_quant_call (b1 :: tl) with Some _ => true | None => false end)
  then lmap ALogical (lex_logical sch st f d (b1 :: tl))
  else arg_index_or_cmp sch st f d (b1 :: tl) p.
Proof.
  intros H. destruct (first_chars_hd b1 tl H) as (c3 & E). cbn [lex_arg]. rewrite E.
  destruct (_ || _); [exists true; reflexivity|]. destruct (_ || _ || _); [exists true; reflexivity|].
  destruct (_ || _ || _); [exists true|exists false]; reflexivity.
Qed.

Lemma lex_arg_logical f d t : (exists x, t = 40 :: x \/ t = 33 :: x \/ t = bs "not" ++ x) ->
  lex_arg sch st (S f) d t = lmap ALogical (lex_logical sch st f d t).
Proof.
  intros (x & [->|[->| ->]]);
    [destruct (lex_arg_first f d 40 x eq_refl) as (p & E)|destruct (lex_arg_first f d 33 x eq_refl) as (p & E)|
     destruct (lex_arg_first f d 110 (111 :: 116 :: x) eq_refl) as (p & E)]; exact E.
Qed.

Scheme GLhs_mind := Minimality for GLhs Sort Prop
  with GArgs_mind := Minimality for GArgs Sort Prop
  with GArg_mind := Minimality for GArg Sort Prop
  with GSimple_mind := Minimality for GSimple Sort Prop
  with GTail_mind := Minimality for GTail Sort Prop
  with GLogical_mind := Minimality for GLogical Sort Prop.
Combined Scheme grammar_ind from GLhs_mind, GArgs_mind, GArg_mind, GSimple_mind, GTail_mind, GLogical_mind.

Definition log_end (r : bytes) : Prop := atom_follow r /\ lex_combining_op r = (None, r).
(* after an argument: white space, then `,` or `)` *)
Definition sep_follow (r : bytes) : Prop := exists ws c x, layout_ws ws /\ r = ws ++ c :: x /\ (c = 44 \/ c = 41).
Definition arg_start (t : bytes) : Prop := match t with b :: _ => b <> 41 /\ b <> 44 | [] => False end.

Definition PLhs (d : N) (t : bytes) (ie : iexpr) (ty0 : ty) : Prop :=
  tok_start t /\ tok_end t /\ ty_iexpr sch ie = Some ty0 /\
  (exists name more, t = name ++ more /\ ident_text name /\ kw_free name /\
     forall r, name_follow r -> ident_stop (more ++ r) /\ second_ok (more ++ r)) /\
  forall r f, name_follow r -> okf (lex_index_expr sch st f d (t ++ r)) ie r.
Definition PArgs (d : N) (def : fn_def) (acc : list arg) (txt : bytes) (all : list arg) : Prop :=
  tok_end txt /\ (acc <> [] -> forall r, sep_follow (txt ++ r)) /\
  forall r f, okf (lex_call_args sch st f d (skip_space (txt ++ r)) def acc) all r.
Definition PArg (d : N) (atxt : bytes) (a : arg) : Prop :=
  tok_start atxt /\ tok_end atxt /\ arg_start atxt /\
  forall r f, sep_follow r -> okf (lex_arg sch st f d (atxt ++ r)) a r.
Definition PS (K : bool) (d : N) (t : bytes) (a : lexpr) : Prop :=
  tok_start t /\ tok_end t /\ not_combining a /\ ty_lexpr sch a = Some (kty K) /\
  forall r f, atom_follow r -> okf (lex_simple sch st f d (t ++ r)) a r.
Definition PT (K : bool) (d : N) (c : @chain lexpr) (tc : bytes) : Prop :=
  (tc = [] \/ tok_end tc) /\ (forall r, atom_follow r -> atom_follow (tc ++ r)) /\
  forall r, log_end r -> ChainRep sch st d (kcls K) c (tc ++ r) r.
Definition PL (K : bool) (d : N) (t : bytes) (e : lexpr) : Prop :=
  tok_start t /\ tok_end t /\ ty_lexpr sch e = Some (kty K) /\
  forall r f, log_end r -> okf (lex_logical sch st f d (t ++ r)) e r.

Lemma close_follow ws c x : layout_ws ws -> c = 44 \/ c = 41 ->
  atom_follow (ws ++ c :: x) /\ name_follow (ws ++ c :: x) /\ lex_combining_op (ws ++ c :: x) = (None, ws ++ c :: x) /\
  lex_alts comparison_ops (skip_space (ws ++ c :: x)) = None.
Proof.
  intros Hw Hc. assert (Ha : atom_follow (ws ++ c :: x)).
  { apply ws_then; [assumption|]. intros b y [Hb| ->]; [now left|]. right. destruct Hc as [->| ->]; auto 6. }
  split; [exact Ha|]. split; [exact (atom_name_follow _ Ha)|].
  split; [apply combining_op_none|]; rewrite skip_space_ws by assumption; destruct Hc as [->| ->]; reflexivity.
Qed.
Lemma sep_log_end r : sep_follow r -> log_end r.
Proof. intros (ws & c & x & Hw & -> & Hc). split; apply (close_follow ws c x Hw Hc). Qed.

Lemma lhs_ends name itxt t0 idx t : ident_text name -> idx_text t0 itxt idx t -> tok_start (name ++ itxt) /\ tok_end (name ++ itxt).
Proof.
  intros Hn Hi. destruct (ident_text_ends name Hn) as [Hs He]. split; [now apply tok_start_app|].
  exact (tok_end_opt _ _ He (idx_text_end _ _ _ _ Hi)).
Qed.

Lemma lhs_field_facts d name i t0 itxt idx t : names_field sch name i t0 -> idx_text t0 itxt idx t ->
  PLhs d (name ++ itxt) (IField i idx) t.
Proof.
  intros (Hn & Hkw & Hg & Hty) Hi. destruct (lhs_ends name itxt t0 idx t Hn Hi) as [Hs He].
  repeat split; [apply Hs|exact He|cbn [ty_iexpr]; rewrite Hty; exact (idx_ty _ _ _ _ Hi)| |].
  - exists name, itxt. split; [reflexivity|]. split; [exact Hn|]. split; [exact Hkw|]. intros r. exact (idx_name_end _ _ _ _ r Hi).
  - intros r f Hr. rewrite <- app_assoc. exact (index_expr_field f d name i t0 itxt idx t r Hn Hg Hty Hi Hr).
Qed.

(* LogicalExpr::lex_simple_expr and FunctionCallArgExpr::lex_with on a text that begins with a left-hand side: both
   read the left-hand side first, then look for a comparison operator *)
Lemma simple_lhs d ltxt ie t r f : PLhs d ltxt ie t -> name_follow r ->
  lex_simple sch st (S f) d (ltxt ++ r) =
  lbind (lex_index_expr sch st f d (ltxt ++ r)) (fun lhs rest => lex_with_lhs sch st f d rest lhs).
Proof.
  intros (_ & _ & _ & (name & more & -> & Hn & Hkw & Hmore) & _) Hr.
  destruct (name_not_special name (more ++ r) Hn Hkw (proj1 (Hmore r Hr))) as (E1 & E2 & E3).
  rewrite app_assoc in E1, E2, E3. now rewrite lex_simple_S, E1, E2, E3.
Qed.

Lemma arg_lhs d ltxt ie t r f a r' : PLhs d ltxt ie t -> name_follow r ->
  okf match lex_alts comparison_ops (skip_space r) with
      | Some _ => lmap ALogical (lex_with_lhs sch st f d r ie)
      | None => LOk (AIndex ie) r
      end a r' ->
  okf (lex_arg sch st (S f) d (ltxt ++ r)) a r'.
Proof.
  intros (_ & _ & _ & (name & more & -> & Hn & Hkw & Hmore) & Hp) Hr Hk. specialize (Hp r f Hr).
  destruct (Hmore r Hr) as [Hst Hsec]. destruct (name_not_special name _ Hn Hkw Hst) as (_ & U2 & U3).
  destruct (name_second name _ Hn Hsec) as (b1 & tl & Etl & Hb1 & Hsec'). rewrite <- app_assoc, Etl in *.
  destruct (ident_byte_tok b1 Hb1) as (([Hlt _] & _) & _ & N34%N.eqb_neq & _ & N40%N.eqb_neq & _).
  destruct (lex_arg_first f d b1 tl Hlt) as (p & ->).
  rewrite U2, U3, N34, N40, (hd_not_quote tl Hsec'), andb_false_r. cbn [orb]. unfold arg_index_or_cmp.
  destruct Hp as [-> | ->]; [now left|exact Hk].
Qed.

Lemma lhs_arg_start d t ie ty0 x : PLhs d t ie ty0 -> arg_start (t ++ x).
Proof.
  intros (_ & _ & _ & (name & more & -> & Hn & _) & _). destruct (ident_text_first name Hn) as (b & tl & -> & Hb).
  split; intros ->; discriminate Hb.
Qed.

Lemma cmp_name_follow t sp sym lit c ws1 y : cmp_text_s sch t sp sym lit c -> layout_ws ws1 -> (sym = true \/ ws1 <> []) ->
  name_follow (ws1 ++ sp ++ y).
Proof.
  intros Hc H1 Hsym. destruct ws1 as [|c0 ws1]; [|apply (layout_first_follow (c0 :: ws1)); [assumption|discriminate]].
  destruct Hsym as [->|Hne]; [|congruence]. now apply (cmp_text_op _ _ _ _ _ Hc).
Qed.

Lemma simple_istrue K d ltxt ie t : PLhs d ltxt ie t -> istrue_class (iexpr_idx ie) t = Some K ->
  PS K d ltxt (EComparison ie CIsTrue).
Proof.
  intros HP Hk. pose proof HP as (Hs & He & Hlt & _ & Hp). unfold istrue_class in Hk.
  repeat split; [apply Hs|exact He| |].
  { cbn [ty_lexpr]. unfold ty_cmp_of. rewrite Hlt.
    destruct (Nat.ltb 0 (map_each_count (iexpr_idx ie))); destruct t as [| | | |[]|[]]; try discriminate Hk;
      injection Hk as <-; reflexivity. }
  intros r [|f] Hr%atom_name_follow; [now left|]. rewrite (simple_lhs d _ ie t r f HP Hr).
  eapply okf_bind; [now apply Hp|]. destruct f as [|f]; [now left|]. right. rewrite lex_with_lhs_S, Hlt.
  destruct t as [| | | |[]|[]]; try discriminate Hk; try reflexivity;
    destruct (Nat.ltb 0 (map_each_count (iexpr_idx ie))); try discriminate Hk; reflexivity.
Qed.

Lemma simple_cmp K d ltxt ie t ws1 sp sym ws2 lit c : PLhs d ltxt ie t -> K = Nat.ltb 0 (map_each_count (iexpr_idx ie)) ->
  layout_ws ws1 -> layout_ws ws2 -> (sym = true \/ ws1 <> []) -> cmp_text_s sch t sp sym lit c -> tok_start lit -> tok_end lit ->
  PS K d (ltxt ++ ws1 ++ sp ++ ws2 ++ lit) (EComparison ie c).
Proof.
  intros HP -> H1 H2 Hsym Hc Hls Hle. pose proof HP as (Hs & He & Hlt & _ & Hp). destruct (cmp_text_op _ _ _ _ _ Hc) as (Hnc & _).
  repeat split; [apply (tok_start_app _ _ Hs)|auto 6 with tok| |].
  { cbn [ty_lexpr]. unfold ty_cmp_of. destruct (Nat.ltb 0 (map_each_count (iexpr_idx ie))); [reflexivity|].
    destruct c; try reflexivity. congruence. }
  intros r [|f] Hr; [now left|]. pose proof (cmp_name_follow _ _ _ _ _ ws1 (ws2 ++ lit ++ r) Hc H1 Hsym) as Hnf.
  rewrite <- !app_assoc, (simple_lhs d _ ie t _ f HP Hnf).
  eapply okf_bind; [now apply Hp|]. destruct f as [|f]; [now left|]. right.
  exact (cmp_parses t sp sym lit c Hc f d ie ws1 ws2 r Hlt H1 H2 Hls Hr).
Qed.

Lemma arg_cmp d ltxt ie t ws1 sp sym ws2 lit c : PLhs d ltxt ie t ->
  layout_ws ws1 -> layout_ws ws2 -> (sym = true \/ ws1 <> []) -> cmp_text_s sch t sp sym lit c -> tok_start lit -> tok_end lit ->
  PArg d (ltxt ++ ws1 ++ sp ++ ws2 ++ lit) (ALogical (EComparison ie c)).
Proof.
  intros HP H1 H2 Hsym Hc Hls Hle. pose proof HP as (Hs & He & Hlt & _).
  split; [apply (tok_start_app _ _ Hs)|]. split; [auto 6 with tok|]. split; [apply (lhs_arg_start _ _ _ _ _ HP)|].
  intros r [|f] [Hr _]%sep_log_end; [now left|].
  pose proof (cmp_name_follow _ _ _ _ _ ws1 (ws2 ++ lit ++ r) Hc H1 Hsym) as Hnf.
  pose proof (fun f => cmp_parses t sp sym lit c Hc f d ie ws1 ws2 r Hlt H1 H2 Hls Hr) as Hcp.
  destruct (lex_with_lhs_ok_alts sch st 0 d _ ie t _ r Hlt (proj1 (proj2 (cmp_text_op _ _ _ _ _ Hc))) (Hcp 0%nat)) as (p & Ep).
  rewrite <- !app_assoc. apply (arg_lhs d _ ie t _ f _ _ HP Hnf). rewrite Ep.
  destruct f as [|f]; [now left|]. right. now rewrite Hcp.
Qed.

Lemma arg_of_lhs d t ie ty0 : PLhs d t ie ty0 -> PArg d t (AIndex ie).
Proof.
  intros HP. pose proof HP as (Hs & He & _). split; [exact Hs|]. split; [exact He|].
  split; [rewrite <- (app_nil_r t); apply (lhs_arg_start _ _ _ _ _ HP)|].
  intros r [|f] (ws & c & x & Hw & -> & Hc); [now left|]. destruct (close_follow ws c x Hw Hc) as (_ & Hnf & _ & Hno).
  apply (arg_lhs d _ ie ty0 _ f _ _ HP Hnf). rewrite Hno. now right.
Qed.
Lemma arg_of_logical K d t le : PL K d t le -> (exists x, t = 40 :: x \/ t = 33 :: x \/ t = bs "not" ++ x) -> PArg d t (ALogical le).
Proof.
  intros (Hs & He & Hty & Hp) Hst. split; [exact Hs|]. split; [exact He|].
  split; [destruct Hst as (x & [->|[->| ->]]); split; discriminate|].
  intros r [|f] Hr%sep_log_end; [now left|]. rewrite lex_arg_logical.
  - destruct (Hp r f Hr) as [->| ->]; [now left|now right].
  - destruct Hst as (x & [->|[->| ->]]); exists (x ++ r); rewrite <- ?app_assoc; auto.
Qed.

Lemma quant_parses d q qsp ws1 ws2 atxt a ws3 e :
  In (qsp, q) [(bs "any", QAny); (bs "all", QAll)] -> layout_ws ws1 -> layout_ws ws2 -> layout_ws ws3 ->
  d < st_max_depth st -> PArg (d + 1) atxt a ->
  match a with
  | AIndex ie => map_each_count (iexpr_idx ie) = 0%nat /\ ty_iexpr sch ie = Some (TArray TBool) /\ e = EQuantIndex q ie
  | ALogical le => ty_lexpr sch le = Some (TArray TBool) /\ e = EQuantLogical q le
  | ALit _ => False
  end ->
  PS false d (qsp ++ ws1 ++ 40 :: ws2 ++ atxt ++ ws3 ++ [41]) e.
Proof.
  intros Hq H1 H2 H3 Hd (Hs & _ & _ & Hp) Ha.
  repeat split; [destruct Hq as [Hq|[Hq|[]]]; injection Hq as <- _; repeat split; discriminate
                |change (40 :: ws2 ++ atxt ++ ws3 ++ [41]) with ([40] ++ ws2 ++ atxt ++ ws3 ++ [41]); auto 8 with tok|..].
  1-2: destruct a as [ie|?|le]; [destruct Ha as (_ & _ & ->)|destruct Ha|destruct Ha as (_ & ->)]; reflexivity.
  intros r [|f] _; [now left|]. rewrite <- !app_assoc. cbn [app]. rewrite <- !app_assoc. cbn [app].
  rewrite (quant_token sch st f d qsp q ws1 ws2 _ Hq H1 H2 Hd), (skip_space_tok atxt _ Hs).
  destruct (Hp (ws3 ++ 41 :: r) f ltac:(exists ws3, 41, r; auto)) as [->| ->]; [now left|right].
  unfold quant_arg. destruct a as [ie|?|le]; [destruct Ha as (-> & -> & ->)|destruct Ha|destruct Ha as (-> & ->)];
    now rewrite (expect_close_layout ws3 r H3).
Qed.

Lemma lhs_call_facts d name i def ws1 atxt all tret itxt idx t :
  names_fn sch name i def -> layout_ws ws1 -> d < st_max_depth st -> PArgs (d + 1) def [] atxt all ->
  ty_call sch i (args_of_list all) = Some tret -> idx_text tret itxt idx t ->
  PLhs d (name ++ ws1 ++ 40 :: atxt ++ itxt) (ICall i (args_of_list all) idx) t.
Proof.
  intros (Hn & Hkw & Hg & Hdef) H1 Hd (Hae & _ & Hap) Hret Hi.
  destruct (ident_text_ends name Hn) as [Hs He].
  assert (Hst : forall x, ident_stop (ws1 ++ 40 :: x) /\ second_ok (ws1 ++ 40 :: x)).
  { intros x. apply ws_then; [assumption|]. intros b y H. follow_solve H. }
  split; [now apply tok_start_app|].
  split. { rewrite app_comm_cons. apply tok_end_app, tok_end_app, tok_end_opt; [auto with tok|exact (idx_text_end _ _ _ _ Hi)]. }
  split. { cbn [ty_iexpr]. fold (ty_call sch i (args_of_list all)). rewrite Hret. exact (idx_ty _ _ _ _ Hi). }
  split. { exists name, (ws1 ++ 40 :: atxt ++ itxt). split; [reflexivity|]. split; [exact Hn|]. split; [exact Hkw|].
           intros r _. rewrite <- app_assoc. apply Hst. }
  intros r [|f] Hr; [now left|]. rewrite <- !app_assoc. cbn [app]. rewrite <- !app_assoc.
  cbn [lex_index_expr]. rewrite (ident_name_roundtrip name _ Hn (proj1 (Hst _))), Hg, (increase_intro st d _ Hd).
  destruct f as [|f]; [now left|]. cbn [lex_call]. rewrite Hdef, skip_space_ws by assumption.
  change (expect [40] (skip_space (40 :: atxt ++ itxt ++ r))) with (LOk tt (atxt ++ itxt ++ r)). cbn [lbind].
  destruct (Hap (itxt ++ r) f) as [->| ->]; [now left|]. unfold lmap at 1. cbn [lbind]. rewrite Hret.
  rewrite (lex_indexes_text tret itxt idx t Hi r [] _ (proj2 (name_follow_facts r Hr))); [now right|].
  rewrite app_length. lia.
Qed.

(* one turn of the argument loop: `,` unless this is the first argument, layout, an admissible argument *)
Lemma call_args_turn f d def acc comma ws atxt a y all r :
  (acc = [] /\ comma = []) \/ (acc <> [] /\ comma = [44]) -> layout_ws ws -> PArg d atxt a -> arg_admitted sch def acc a ->
  sep_follow y -> okf (lex_call_args sch st f d (skip_space y) def (acc ++ [a])) all r ->
  okf (lex_call_args sch st (S f) d (comma ++ ws ++ atxt ++ y) def acc) all r.
Proof.
  intros Hc Hw (Hs & _ & Hst & Hp) (C1 & C2 & t & Hta & Hck) Hy Hk.
  assert (E : (if Nat.eqb (List.length acc) 0 then LOk tt (comma ++ ws ++ atxt ++ y) else expect [44] (comma ++ ws ++ atxt ++ y))
              = LOk tt (ws ++ atxt ++ y)).
  { destruct Hc as [[-> ->]|[Hne ->]]; [reflexivity|]. destruct acc; [congruence|reflexivity]. }
  rewrite lex_call_args_more.
  - unfold call_args_next. rewrite E. cbn [lbind]. rewrite skip_space_ws, (skip_space_tok atxt y Hs) by assumption.
    destruct (Hp y f Hy) as [->| ->]; [now left|]. unfold call_args_push. now rewrite C1, C2, Hta, Hck.
  - destruct Hc as [[_ ->]|[_ ->]]; [|discriminate]. destruct Hw as [|c0 ? Hc0 _]; [|destruct Hc0 as [->|[->| ->]]; discriminate].
    destruct atxt; [destruct Hst|apply Hst].
Qed.

(* a separator before a token: it may follow a simple expression, and LogicalExpr::lex_combining_op reads it *)
Lemma sep_text_op o s ta y : sep_text o s -> tok_start ta ->
  atom_follow (s ++ ta ++ y) /\ lex_combining_op (s ++ ta ++ y) = (Some (cv o), ta ++ y).
Proof.
  intros (ws1 & sp & sym & ws2 & -> & H1 & H2 & (a1 & a2 & Hin & Hsp) & Hs) Hta. rewrite <- !app_assoc. split.
  - destruct ws1 as [|c ws1]; [|apply (layout_first_follow (c :: ws1)); [assumption|discriminate]].
    destruct Hs as [->|Hs]; [|congruence]. destruct Hsp as [[_ E]|[-> _]]; [discriminate E|].
    cbn in Hin. destruct Hin as [H|[H|[H|[]]]]; injection H as <- <- _; cbn; auto 8.
  - now rewrite (combining_token a1 a2 (cv o) sp ws1 ws2 (ta ++ y) Hin (spelling_in _ _ _ _ Hsp) H1 H2), (skip_space_tok ta _ Hta).
Qed.

Theorem grammar_parses :
  (forall d t ie ty0, GLhs sch st d t ie ty0 -> PLhs d t ie ty0) /\
  (forall d def acc txt all, GArgs sch st d def acc txt all -> PArgs d def acc txt all) /\
  (forall d atxt a, GArg sch st d atxt a -> PArg d atxt a) /\
  (forall K d t a, GSimple sch st K d t a -> PS K d t a) /\
  (forall K d c tc, GTail sch st K d c tc -> PT K d c tc) /\
  (forall K d t e, GLogical sch st K d t e -> PL K d t e).
Proof.
  apply grammar_ind.
  - (* a field with index accesses *)
    exact lhs_field_facts.
  - (* a function call with index accesses *)
    intros d name i def ws1 atxt all tret itxt idx t Hnf H1 Hd _. now apply lhs_call_facts.
  - (* `)` *)
    intros d def acc ws Hw Har. split; [auto with tok|].
    split. { intros _ r. exists ws, 41, r. rewrite <- app_assoc. auto. }
    intros r [|f]; [now left|]. right. rewrite <- app_assoc, skip_space_ws by assumption.
    change (lex_call_args sch st (S f) d (skip_space ([41] ++ r)) def acc) with (call_args_finish def acc (41 :: r)).
    unfold call_args_finish. unfold arity_reached in Har. now rewrite Har.
  - (* the first argument *)
    intros d def ws atxt a rest all Hw _ HA Had _ (Hre & Hrf & Hrp). pose proof HA as (Hs & _).
    split; [auto with tok|]. split; [congruence|].
    intros r [|f]; [now left|]. rewrite <- !app_assoc, skip_space_ws, (skip_space_tok atxt _ Hs) by assumption.
    exact (call_args_turn f d def [] [] [] atxt a (rest ++ r) all r (or_introl (conj eq_refl eq_refl)) (Forall_nil _) HA Had
             (Hrf ltac:(discriminate) r) (Hrp r f)).
  - (* a further argument *)
    intros d def acc ws0 ws atxt a rest all Hne Hw0 Hw _ HA Had _ (Hre & Hrf & Hrp).
    split. { change (44 :: ws ++ atxt ++ rest) with ([44] ++ ws ++ atxt ++ rest). auto 6 with tok. }
    split. { intros _ r. exists ws0, 44, ((ws ++ atxt ++ rest) ++ r). rewrite <- app_assoc. auto. }
    intros r [|f]; [now left|]. rewrite <- !app_assoc, skip_space_ws by assumption. cbn [app]. rewrite <- !app_assoc.
    change (skip_space (44 :: ws ++ atxt ++ rest ++ r)) with ([44] ++ ws ++ atxt ++ rest ++ r).
    exact (call_args_turn f d def acc [44] ws atxt a (rest ++ r) all r (or_intror (conj Hne eq_refl)) Hw HA Had
             (Hrf ltac:(now destruct acc) r) (Hrp r f)).
  - (* a quoted string as an argument *)
    intros d l Hl. destruct (print_quoted_ends l) as [Hs He].
    split; [exact Hs|]. split; [exact He|]. split; [split; discriminate|].
    intros r [|f] _; [now left|]. right.
    destruct (lex_arg_first f d 34 ((print_qbody l ++ [34]) ++ r) eq_refl) as (p & E).
    change (34 :: (print_qbody l ++ [34]) ++ r) with (print_quoted l ++ r) in E. now rewrite E, (quoted_roundtrip l r Hl).
  - (* a left-hand side as an argument *)
    intros d t ie ty0 _. apply arg_of_lhs.
  - (* a logical expression as an argument *)
    intros K d t le _. apply arg_of_logical.
  - (* bare boolean / boolean-array field *)
    intros K d name i t0 itxt idx t Hnf Hi. apply (simple_istrue K d _ (IField i idx) t). now apply (lhs_field_facts d name i t0).
  - (* comparison over a field *)
    intros K d name i t0 itxt idx t ws1 sp sym ws2 lit c Hnf Hi. rewrite app_assoc. apply (simple_cmp K d _ (IField i idx) t).
    now apply (lhs_field_facts d name i t0).
  - (* bare left-hand side *)
    intros K d ltxt ie t _. apply simple_istrue.
  - (* comparison over a left-hand side *)
    intros K d ltxt ie t ws1 sp sym ws2 lit c _. apply simple_cmp.
  - (* not *)
    intros K d sp ws t a Hsp Hw Hd _ (Hs & He & Hn & Hty & Hp).
    split. { destruct Hsp as [<-|[<-|[]]]; repeat split; discriminate. }
    split; [auto with tok|]. split; [exact I|]. split; [exact Hty|].
    intros r [|f] Hr; [now left|]. rewrite <- !app_assoc, (unary_token sch st f d sp ws (t ++ r) Hsp Hw Hd), (skip_space_tok t r Hs).
    eapply okf_bind; [now apply Hp|now right].
  - (* parentheses *)
    intros K d ws1 t e ws2 H1 H2 Hd _ (Hs & He & Hty & Hp).
    split; [repeat split; discriminate|]. split; [auto 6 with tok|]. split; [exact I|]. split; [exact Hty|].
    intros r [|f] Hr; [now left|]. cbn [app]. rewrite <- !app_assoc, (lex_simple_paren sch st f d ws1 _ H1 Hd). cbn [app].
    rewrite (skip_space_tok t _ Hs).
    eapply okf_bind; [apply Hp, sep_log_end; exists ws2, 41, r; auto|].
    rewrite (expect_close_layout ws2 r H2). now right.
  - (* any( ) / all( ) over a logical expression *)
    intros d q qsp ws1 ws2 t le ws3 Hq H1 H2 H3 Hd _ HP Hst.
    apply (quant_parses d q qsp ws1 ws2 t (ALogical le) ws3 _ Hq H1 H2 H3 Hd (arg_of_logical true _ t le HP Hst)).
    split; [apply HP|reflexivity].
  - (* any( ) / all( ) over one comparison *)
    intros d q qsp ws1 ws2 name i t0 itxt idx t wsa sp sym wsb lit c ws3 Hq H1 H2 H3 Hd Hnf Hi Heach Ha Hb Hsym Hc Hls Hle.
    pose proof (lhs_field_facts (d + 1) name i t0 itxt idx t Hnf Hi) as HP. rewrite (app_assoc name).
    apply (quant_parses d q qsp ws1 ws2 _ _ ws3 _ Hq H1 H2 H3 Hd (arg_cmp _ _ _ t wsa sp sym wsb lit c HP Ha Hb Hsym Hc Hls Hle)).
    split; [|reflexivity]. now apply (simple_cmp true _ _ _ t wsa sp sym wsb lit c HP (eq_sym Heach) Ha Hb Hsym Hc Hls Hle).
  - (* any( ) / all( ) over a bare Array(Bool) left-hand side *)
    intros d q qsp ws1 ws2 name i t0 itxt idx ws3 Hq H1 H2 H3 Hd Hnf Hi Heach.
    pose proof (lhs_field_facts (d + 1) name i t0 itxt idx _ Hnf Hi) as HP.
    apply (quant_parses d q qsp ws1 ws2 _ _ ws3 _ Hq H1 H2 H3 Hd (arg_of_lhs _ _ _ _ HP)).
    split; [exact Heach|]. split; [apply HP|reflexivity].
  - (* empty tail *)
    intros K d. split; [now left|]. split; [intros r Hr; exact Hr|].
    intros r [Hr He]. cbn [app ChainRep]. auto.
  - (* operator, simple expression, tail *)
    intros K d o s ta a c tc Hsep _ (Hs & He & Hn & Hty & Hp) _ (Hte & Htf & Htc).
    split; [right; auto using tok_end_opt with tok|].
    split. { intros r _. rewrite <- !app_assoc. exact (proj1 (sep_text_op o s ta _ Hsep Hs)). }
    intros r Hr. cbn [ChainRep]. exists (ta ++ tc ++ r), (tc ++ r).
    split; [rewrite <- !app_assoc; exact (proj2 (sep_text_op o s ta _ Hsep Hs))|].
    split. { intros f. apply Hp, Htf, Hr. }
    split; [exact Hn|]. split; [exists (kty K); split; [exact Hty|apply kcls_kty]|].
    apply Htc. exact Hr.
  - (* a whole logical expression *)
    intros K d x t0 a0 tc Hx Hf _ (Hs & He & Hn & Hty & Hp) _ (Hte & Htf & Htc).
    assert (Hall : forall r, log_end r ->
              (forall f, okf (lex_logical sch st f d (t0 ++ tc ++ r)) (interp (build_or x)) r) /\
              lex_combining_op r = (None, r) /\ wt sch (kcls K) (build_or x)).
    { intros r Hr. apply (logical_chain_parses sch st d (kcls K) (kcls_comb K) x (t0 ++ tc ++ r) (tc ++ r) r Hx); rewrite ?Hf.
      - intros f. apply Hp, Htf, Hr.
      - exact Hn.
      - exists (kty K). split; [exact Hty|apply kcls_kty].
      - apply Htc. exact Hr. }
    split; [now apply tok_start_app|]. split; [exact (tok_end_opt _ _ He Hte)|].
    split.
    { destruct (Hall [] (conj I eq_refl)) as (_ & _ & (t & Ht & Hb)). now rewrite (kcls_eq K t Hb) in Ht. }
    intros r f Hr. rewrite <- app_assoc. apply (proj1 (Hall r Hr)).
Qed.

End Main.
Lemma trim_id t : tok_start t -> tok_end t -> trim t = t.
Proof.
  intros Hs He. unfold trim.
  assert (E : trim_start t = t).
  { unfold trim_start. destruct t as [|b t']; [destruct Hs|]. destruct Hs as [Hv _].
    cbn [List.length drop_while_some]. now rewrite (ws_prefix_ascii b t' (proj1 Hv) (proj2 Hv)). }
  rewrite E. unfold tok_end in He. destruct (rev t) as [|d r] eqn:Er; [destruct He|].
  assert (El : List.length t = S (List.length r)) by (rewrite <- (rev_length t), Er; reflexivity).
  rewrite El. cbn [drop_while_some]. rewrite (ws_suffix_ascii d r (proj1 He) (proj2 He)). rewrite <- Er. apply rev_involutive.
Qed.

(* the whole input read (LFuel apart), the fuel sufficient: the parse is complete *)
Lemma okf_complete {A B} (r : lres A) a (k : A -> bytes -> lres B) b :
  okf r a [] -> complete (lbind r k) <> LFuel -> k a [] = LOk b [] -> complete (lbind r k) = LOk b [].
Proof. intros [->| ->] Hnf Hk; [now elim Hnf|]. cbn [lbind]. now rewrite Hk. Qed.

Theorem filter_grammar_parses sch st text e : GFilter sch st text e -> parse_filter sch st text = LOk e [].
Proof.
  intros (ws1 & t & ws2 & -> & H1 & H2 & HG).
  rewrite (parse_filter_outer_layout sch st ws1 ws2 t H1 H2).
  destruct (proj2 (proj2 (proj2 (proj2 (proj2 (grammar_parses sch st))))) false 0 t e HG) as (Hs & He & Hty & Hp).
  pose proof (parse_filter_terminates sch st t) as Hnf. unfold parse_filter in Hnf |- *. rewrite (trim_id t Hs He) in Hnf |- *.
  specialize (Hp [] (8 * List.length t + 16)%nat (conj I eq_refl)). rewrite app_nil_r in Hp.
  apply (okf_complete _ e _ _ Hp Hnf). now rewrite Hty.
Qed.

(* two layouts / spellings of the same structure: the same AST *)
Corollary layouts_agree sch st t1 t2 e :
  GFilter sch st t1 e -> GFilter sch st t2 e -> parse_filter sch st t1 = parse_filter sch st t2.
Proof. intros H1 H2. now rewrite (filter_grammar_parses _ _ _ _ H1), (filter_grammar_parses _ _ _ _ H2). Qed.

Definition gex_sch : scheme :=
  {| sc_fields := [ {| fd_name := bs "num"; fd_ty := TInt; fd_optional := false |};
                    {| fd_name := bs "http.host"; fd_ty := TBytes; fd_optional := false |};
                    {| fd_name := bs "tt"; fd_ty := TBool; fd_optional := false |};
                    {| fd_name := bs "nums"; fd_ty := TArray TInt; fd_optional := true |} ];
     sc_functions := []; sc_lists := []; sc_nil_ne := true |}.
Definition gex_a1 : lexpr := EComparison (IField 0 []) (COrd OGe (RInt 5)).
Definition gex_a2 : lexpr := EComparison (IField 2 []) CIsTrue.
Definition gex_a3 : lexpr := ENot (EParen (EComparison (IField 1 []) (COrd OEq (RBytes [97] FQuoted)))).
Definition gex_a4 : lexpr := EComparison (IField 3 [IArr 1]) (COneOfInt [(1, 1); (3, 5)]%Z).
Definition gex_x : @orl lexpr := (((Atom gex_a1, [Atom gex_a2]), []), [((Atom gex_a3, []), []); ((Atom gex_a4, []), [])]).
Definition gex_text : bytes := bs "num>=5 and tt
  || !( http.host  eq ""a"") or nums[ 1 ] in {1 3..5}".

Lemma sep_text_intro o ws1 sp sym ws2 : layout_ws ws1 -> layout_ws ws2 -> logical_spelling (cv o) sp sym ->
  (sym = true \/ ws1 <> []) -> sep_text o (ws1 ++ sp ++ ws2).
Proof. intros H1 H2 Hsp Hs. exists ws1, sp, sym, ws2. auto. Qed.

(* The closed side conditions of the derivations below: layout, the first and last byte of a token, a row of an
   alias table, the range of a numeral, a name without dots.  The derivation trees themselves are written out. *)
Create HintDb gex.
#[local] Hint Extern 1 (layout_ws _) => repeat (constructor; auto) : gex.
#[local] Hint Extern 1 (tok_start _) => repeat split; discriminate : gex.
#[local] Hint Extern 1 (tok_end _) => repeat split : gex.
#[local] Hint Extern 1 (In _ _) => repeat ((left; reflexivity) || right) : gex.
#[local] Hint Extern 1 (_ = _) => reflexivity : gex.
#[local] Hint Extern 1 (_ <> _) => discriminate : gex.
#[local] Hint Extern 1 (_ < _) => reflexivity : gex.
#[local] Hint Extern 1 (in_i64 _) => unfold in_i64, i64_min, i64_max; lia : gex.
#[local] Hint Extern 1 (int_form_ok IDec _) => exact I : gex.
#[local] Hint Extern 1 (ident_text _) => apply IT_seg; [discriminate|repeat constructor] : gex.

Lemma gex_names : names_field gex_sch (bs "num") 0 TInt /\ names_field gex_sch (bs "http.host") 1 TBytes /\
                  names_field gex_sch (bs "tt") 2 TBool /\ names_field gex_sch (bs "nums") 3 (TArray TInt).
Proof.
  assert (I2 : ident_text (bs "http.host")).
  { apply (IT_dot (bs "http") (bs "host")); [discriminate|repeat constructor|auto with gex]. }
  repeat split; auto with gex.
Qed.

Example gex_in_grammar : GFilter gex_sch default_settings gex_text (interp (build_or gex_x)).
Proof.
  destruct gex_names as (N1 & N2 & N3 & N4).
  exists [], gex_text, []. do 3 (split; [auto with gex|]).
  change gex_text with (bs "num>=5" ++ (bs " and " ++ bs "tt" ++ (bs "
  || " ++ bs "!( http.host  eq ""a"")" ++ (bs " or " ++ bs "nums[ 1 ] in {1 3..5}" ++ [])))).
  apply (GL gex_sch default_settings false 0 gex_x (bs "num>=5") gex_a1); [repeat constructor|reflexivity| |].
  - apply (GS_cmp gex_sch default_settings false 0 (bs "num") 0 TInt [] [] TInt [] (bs ">=") true [] (bs "5") (COrd OGe (RInt 5)) N1);
      auto with gex; [constructor|].
    apply CS_plain, CT_ord; [exists (bs "ge"), (bs ">="); auto with gex|reflexivity|].
    apply (LT_int IDec 5); auto with gex.
  - change (rest_or gex_x) with [(And, Atom gex_a2); (Or, Atom gex_a3); (Or, Atom gex_a4)].
    apply GT_cons.
    { apply (sep_text_intro And [32] (bs "and") false [32]); auto with gex. exists (bs "and"), (bs "&&"). auto with gex. }
    { apply (GS_istrue gex_sch default_settings false 0 (bs "tt") 2 TBool [] [] TBool N3); [constructor|reflexivity]. }
    apply GT_cons.
    { apply (sep_text_intro Or [10; 32; 32] (bs "||") true [32]); auto with gex. exists (bs "or"), (bs "||"). auto with gex. }
    { apply (GS_not gex_sch default_settings false 0 (bs "!") [] (bs "( http.host  eq ""a"")")); auto with gex.
      change (bs "( http.host  eq ""a"")") with (40 :: [32] ++ (bs "http.host  eq ""a""") ++ [] ++ [41]).
      apply GS_paren; auto with gex.
      change (bs "http.host  eq ""a""") with (bs "http.host  eq ""a""" ++ []).
      apply (GL gex_sch default_settings false (0 + 1 + 1)
               (((Atom (EComparison (IField 1 []) (COrd OEq (RBytes [97] FQuoted))), []), []), [])
               (bs "http.host  eq ""a""") (EComparison (IField 1 []) (COrd OEq (RBytes [97] FQuoted))));
        [repeat constructor|reflexivity| |apply GT_nil].
      apply (GS_cmp gex_sch default_settings false (0 + 1 + 1) (bs "http.host") 1 TBytes [] [] TBytes [32; 32] (bs "eq") false [32]
               (bs """a""") (COrd OEq (RBytes [97] FQuoted)) N2); auto with gex; [constructor|].
      apply CS_plain, CT_ord; [exists (bs "eq"), (bs "=="); auto with gex|reflexivity|].
      apply (LT_quoted [(SLit, 97)]). repeat constructor; cbn; try lia; auto. }
    apply GT_cons; [| |apply GT_nil].
    { apply (sep_text_intro Or [32] (bs "or") false [32]); auto with gex. exists (bs "or"), (bs "||"). auto with gex. }
    apply (GS_cmp gex_sch default_settings false 0 (bs "nums") 3 (TArray TInt) (bs "[ 1 ]") [IArr 1] TInt [32] (bs "in") false [32]
             (bs "{1 3..5}") (COneOfInt [(1, 1); (3, 5)]%Z) N4); auto with gex.
    + apply (IX_arr TInt [32] IDec 1 [32] [] [] TInt); auto with gex; [lia|constructor].
    + apply CS_plain, CT_in_int.
      apply (LT_items int_item_text [] (bs "1") (1, 1)%Z (bs " 3..5}") [(3, 5)%Z]); auto with gex.
      * apply (II_one IDec 1); auto with gex.
      * apply (IT_more int_item_text [32] (bs "3..5") (3, 5)%Z (bs "}") []); auto with gex.
        -- apply (II_range IDec IDec 3 5); auto with gex; lia.
        -- apply (IT_close int_item_text []); auto with gex.
Qed.

Example gex_parses :
  parse_filter gex_sch default_settings gex_text =
  LOk (ECombining LOr (LCons (ECombining LAnd (LCons gex_a1 (LCons gex_a2 LNil))) (LCons gex_a3 (LCons gex_a4 LNil)))) [].
Proof. exact (filter_grammar_parses _ _ _ _ gex_in_grammar). Qed.

Theorem value_grammar_parses sch st text e : GValue sch text e -> parse_value sch st text = LOk e [].
Proof.
  intros (ws1 & name & itxt & ws2 & i & t0 & idx & t & -> & H1 & H2 & Hn & Hg & Hty & Hi & He & ->).
  destruct (lhs_ends name itxt t0 idx t Hn Hi) as [Hs Hend].
  pose proof (parse_value_terminates sch st (name ++ itxt)) as Hnf. unfold parse_value in Hnf |- *.
  rewrite trim_layout by assumption. rewrite (trim_id _ Hs Hend) in Hnf |- *.
  pose proof (index_expr_field sch st (8 * List.length (name ++ itxt) + 16) 0 name i t0 itxt idx t [] Hn Hg Hty Hi I) as Hp.
  rewrite app_nil_r in Hp. apply (okf_complete _ (IField i idx) _ _ Hp Hnf). cbn [iexpr_idx]. now rewrite He.
Qed.

(* a worked instance with a function call:  lower( http.host ) == "a" *)
Definition gex2_sch : scheme :=
  {| sc_fields := sc_fields gex_sch;
     sc_functions := [(bs "lower", {| fn_params := [(KField, TBytes)]; fn_opt_params := []; fn_ret := TBytes;
                                       fn_impl := fun _ => Some None; fn_variadic_same := false |})];
     sc_lists := []; sc_nil_ne := true |}.
Definition gex2_call : iexpr := ICall 0 (args_of_list [AIndex (IField 1 [])]) [].
Definition gex2_ast : lexpr := EComparison gex2_call (COrd OEq (RBytes [97] FQuoted)).
Definition gex2_text : bytes := bs "lower( http.host ) == ""a""".

Example gex2_in_grammar : GFilter gex2_sch default_settings gex2_text gex2_ast.
Proof.
  assert (N2 : names_field gex2_sch (bs "http.host") 1 TBytes) by exact (proj1 (proj2 gex_names)).
  exists [], gex2_text, []. do 3 (split; [auto with gex|]).
  change gex2_text with (bs "lower( http.host ) == ""a""" ++ []).
  apply (GL gex2_sch default_settings false 0 (((Atom gex2_ast, []), []), []) (bs "lower( http.host ) == ""a""") gex2_ast);
    [repeat constructor|reflexivity| |apply GT_nil].
  change (bs "lower( http.host ) == ""a""") with (bs "lower( http.host )" ++ [32] ++ bs "==" ++ [32] ++ bs """a""").
  apply (GS_cmp_lhs gex2_sch default_settings false 0 (bs "lower( http.host )") gex2_call TBytes [32] (bs "==") true [32]
           (bs """a""") (COrd OEq (RBytes [97] FQuoted))); auto with gex.
  - change (bs "lower( http.host )") with (bs "lower" ++ [] ++ 40 :: bs " http.host )" ++ []).
    apply (LH_call gex2_sch default_settings 0 (bs "lower") 0
             {| fn_params := [(KField, TBytes)]; fn_opt_params := []; fn_ret := TBytes;
                fn_impl := fun _ => Some None; fn_variadic_same := false |}
             [] (bs " http.host )") [AIndex (IField 1 [])] TBytes [] [] TBytes); auto with gex;
      [repeat split; auto with gex| |constructor].
    change (bs " http.host )") with ([32] ++ bs "http.host" ++ bs " )").
    apply (GA_first gex2_sch default_settings (0 + 1) _ [32] (bs "http.host") (AIndex (IField 1 [])) (bs " )") [AIndex (IField 1 [])]);
      auto with gex.
    + apply (AR_lhs gex2_sch default_settings (0 + 1) (bs "http.host") (IField 1 []) TBytes).
      change (bs "http.host") with (bs "http.host" ++ []). apply (LH_field gex2_sch default_settings (0 + 1) (bs "http.host") 1 TBytes [] [] TBytes N2). constructor.
    + split; [reflexivity|]. split; [reflexivity|]. exists TBytes. split; reflexivity.
    + change (bs " )") with ([32] ++ [41]). apply (GA_end gex2_sch default_settings (0 + 1) _ [AIndex (IField 1 [])] [32]); [auto with gex|reflexivity].
  - apply CS_plain, CT_ord; [exists (bs "eq"), (bs "=="); auto with gex|reflexivity|].
    apply (LT_quoted [(SLit, 97)]). repeat constructor; cbn; try lia; auto.
Qed.

Example gex2_parses : parse_filter gex2_sch default_settings gex2_text = LOk gex2_ast [].
Proof. exact (filter_grammar_parses _ _ _ _ gex2_in_grammar). Qed.
