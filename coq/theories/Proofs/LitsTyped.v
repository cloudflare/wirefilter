(* C07, part 6: well-typed filters have their literal kinds decided by the
   typing rules: [wt_filter] (Spec/Typing.v, what the parser guarantees, C04)
   implies [lits_typed], the premise of the injectivity theorem. *)
From Coq Require Import List Lia Arith.
From WF Require Import Lang.Types Lang.Ast Spec.Typing Proofs.FullProofs Proofs.TypingProofs
     Spec.C07 Proofs.ByteKeys.
Import ListNotations.

Section WithScheme.
Variable sch : scheme.

Definition arr_or_bytes (t : ty) : Prop := t = TBytes \/ exists s, t = TArray s.

Lemma op_ok_typed tl op :
  op_ok sch tl op = true -> cmp_ips_ok op -> cmp_typed sch (Some tl) op.
Proof.
  destruct op as [|o r|z|p f|pat raw|st p f|l|l|l|li name]; cbn [cmp_typed cmp_ips_ok]; auto.
  - destruct tl, r; cbn [op_ok rhs_ty]; intros H K; try discriminate H; auto.
  - destruct tl; cbn [op_ok]; intros H _; try discriminate H; reflexivity.
  - destruct tl; cbn [op_ok]; intros H K; try discriminate H; auto.
  - destruct tl; cbn [op_ok]; intros H _; try discriminate H; reflexivity.
  - intros H _. exists tl. split; [reflexivity|].
    destruct tl; cbn [op_ok] in H; try discriminate H;
      (destruct (list_index sch _) as [i|]; [apply Nat.eqb_eq in H; now subst|discriminate H]).
Qed.

Lemma field_in_range f t : field_ty sch f = Some t -> (f < length (sc_fields sch))%nat.
Proof.
  unfold field_ty. intro H. apply nth_error_Some. destruct (nth_error (sc_fields sch) f); [discriminate|discriminate H].
Qed.

Lemma ips_ok_args_list a : ips_ok_args a -> Forall ips_ok_arg (args_to_list a).
Proof. induction a as [|x r IH]; cbn [ips_ok_args args_to_list]; [constructor|]. intros [K1 K2]. constructor; auto. Qed.

(* no literal has an array type: where an array or a byte string is expected, a literal is a byte string *)
Lemma lit_arg_bytes x t : arr_or_bytes t -> lits_typed_arg sch (Some t) x -> lits_typed_arg sch (Some TBytes) x.
Proof.
  destruct x as [e|r|e]; cbn [lits_typed_arg]; auto.
  intros [->|[s ->]] [E Hr]; [now split|]. injection E as E. destruct r; discriminate E.
Qed.

Lemma lits_typed_args_same a : forall i ex,
  (forall j, ex j = Some TBytes) -> Forall (lits_typed_arg sch (Some TBytes)) (args_to_list a) ->
  lits_typed_args sch ex i a.
Proof.
  induction a as [|x r IH]; intros i ex Hex H; cbn [args_to_list lits_typed_args] in *; [exact I|].
  rewrite Hex. split; [exact (Forall_inv H)|exact (IH (S i) ex Hex (Forall_inv_tail H))].
Qed.

Lemma lits_typed_args_sig a : forall (sig : list (arg_kind * ty)) i ex,
  (forall j, ex (i + j)%nat = nth_error (map snd sig) j) ->
  Forall2 (fun x kt => lits_typed_arg sch (Some (snd kt)) x) (args_to_list a) (firstn (length (args_to_list a)) sig) ->
  lits_typed_args sch ex i a.
Proof.
  induction a as [|x r IH]; intros sig i ex Hex H; cbn [args_to_list length lits_typed_args] in *; [exact I|].
  destruct sig as [|kt sig']; cbn [firstn] in H; inversion H as [|? ? ? ? Hx Hr]; subst. split.
  - pose proof (Hex O) as H0. rewrite Nat.add_0_r in H0. rewrite H0. exact Hx.
  - apply (IH sig' (S i) ex); [|exact Hr]. intro j. pose proof (Hex (S j)) as Hj. cbn [map nth_error] in Hj. rewrite <- Hj. f_equal. lia.
Qed.

Definition W_l (e : lexpr) : Prop := forall t, wt_lexpr sch e = Some t -> ips_ok e -> lits_typed sch e.
Definition W_ls (l : lexprs) : Prop := forall t, wt_lexprs sch t l = true -> ips_ok_list l -> lits_typed_list sch l.
Definition W_i (e : iexpr) : Prop := forall t, wt_iexpr sch e = Some t -> ips_ok_i e -> lits_typed_i sch e.
Definition W_a (x : arg) : Prop := forall t, wt_arg sch x = Some t -> ips_ok_arg x -> lits_typed_arg sch (Some t) x.
Definition W_as (a : args) : Prop := Forall W_a (args_to_list a).

Lemma wt_lits_mut : (forall e, W_l e) /\ (forall l, W_ls l) /\ (forall e, W_i e) /\ (forall a, W_as a) /\ (forall a, W_a a).
Proof.
  apply ast_mutind.
  - (* ECombining *)
    intros op items IH t H K. destruct (wt_combining_inv sch op items t H) as (e0 & rest & _ & Hall).
    exact (IH t Hall K).
  - (* EComparison *)
    intros lhs IH op t H [K1 K2]. destruct (wt_cmp_inv sch lhs op t H) as (tl & El & Hcase).
    split; [exact (IH tl El K1)|]. rewrite (wt_ty_iexpr sch lhs tl El).
    destruct Hcase as [(_ & Hop & _)|(_ & -> & _)]; [exact (op_ok_typed tl op Hop K2)|exact I].
  - intros e IH. exact IH.
  - intros e IH. exact IH.
  - (* EQuantIndex *)
    intros q a IH t H K. exact (IH _ (proj1 (proj2 (wt_quant_index_inv sch q a t H))) K).
  - (* EQuantLogical *)
    intros q a IH t H K. exact (IH _ (proj2 (wt_quant_logical_inv sch q a t H)) K).
  - intros t _ _. exact I.
  - (* LCons *)
    intros e IHe r IHr t H [K1 K2]. destruct (wt_lcons_inv sch e r t H) as (Ee & Hr).
    split; [exact (IHe t Ee K1)|exact (IHr t Hr K2)].
  - (* IField *)
    intros f idx t H _. cbn [wt_iexpr] in H. destruct (field_ty sch f) as [t0|] eqn:Ef; [|discriminate H].
    exact (field_in_range f t0 Ef).
  - (* ICall: each argument has the type the definition gives its position *)
    intros fn a IH idx t H K. destruct (wt_call_inv sch fn a idx t H) as (d & ret & Ed & _ & Har & Hsig & _ & _).
    cbn [lits_typed_i]. rewrite Ed. apply ips_ok_args_list in K.
    unfold sig_holds, arity_ok, param_ty, W_as in *. destruct (fn_variadic_same d).
    + apply lits_typed_args_same; [reflexivity|]. rewrite Forall_forall in *. intros x Hx.
      apply (lit_arg_bytes x ret); [destruct ret; try contradiction; [now left|right; eauto]|].
      exact (IH x Hx ret (Hsig x Hx) (K x Hx)).
    + apply (lits_typed_args_sig a (CallProofs.sig_of d)); [intro j; unfold CallProofs.sig_of; now rewrite map_app, map_map|].
      clear Har. induction Hsig as [|x kt l sg Hx _ IHl]; constructor.
      * exact (Forall_inv IH _ Hx (Forall_inv K)).
      * exact (IHl (Forall_inv_tail IH) (Forall_inv_tail K)).
  - constructor.
  - intros x IHx r IHr. constructor; assumption.
  - (* AIndex *) intros e IH. exact IH.
  - (* ALit *)
    intros r t H K. cbn [wt_arg] in H. injection H as <-. split; [reflexivity|exact K].
  - (* ALogical *) intros e IH. exact IH.
Qed.

Theorem wt_lits_typed e : wt_filter sch e = true -> ips_ok e -> lits_typed sch e.
Proof.
  unfold wt_filter. intros H K. destruct (wt_lexpr sch e) as [t|] eqn:E; [|discriminate H].
  exact (proj1 wt_lits_mut e t E K).
Qed.

End WithScheme.
