(* C14 — Execution contexts survive serialization and reject bad JSON safely.
   The property theorems, each an instance of a general lemma of
   Proofs/CtxSerdeProofs.v or a few lines from them, their non-vacuity examples
   and the refutation of the one clause the code does not meet (a value tree
   cannot carry an entry of the "$lists" section).

   Level: JSON trees.  The text layer (Sem/JsonText.v) is serde_json's and is
   tied to the implementation by the correspondence check only. *)
From Coq Require Import List ZArith String.
From WF Require Import Base.Bytes Sem.RangeSet Lang.Types Lang.Ast Lang.Context Spec.Typing Sem.Compile Spec.Denote
     Sem.TypeCodec Sem.CtxSerde Spec.C15 Spec.C14 Proofs.CallProofs Proofs.FullProofs Proofs.TypeCodecProofs Proofs.CtxSerdeProofs.
Import ListNotations.
Open Scope N_scope.

(* Every Rust value of every type, at any nesting, in either representation of
   byte strings (string / number array) and of maps (object / array of pairs),
   comes back from its JSON form.  [value_rust]: integers are i64, bytes u8,
   addresses u32 / u128 (the model's data types are wider). *)
Theorem C14_value_roundtrip : forall (v : value) (t : ty),
  has_type v t = true -> value_rust v = true -> value_of_json t (value_to_json v) = Ok v.
Proof. exact value_roundtrip. Qed.

(* Whatever the JSON, a value that is accepted has exactly the requested type,
   at every level, with map keys in BTreeMap order. *)
Theorem C14_value_decode_type_safe : forall (t : ty) (j : json) (v : value),
  value_of_json t j = Ok v -> has_type v t = true.
Proof. exact value_of_json_typed. Qed.

(* A value is read the same way from a value tree (keys sorted) as from the
   document, when no object repeats a key. *)
Theorem C14_value_entry_point_independent : forall (t : ty) (j : json) (e : entry),
  no_dup_keys j = true -> value_of_json t (supply e j) = value_of_json t j.
Proof. intros t j e H. destruct e; try reflexivity. exact (value_as_value t j H). Qed.

(* For every scheme (distinct field names, none of them "$lists"; one list per
   type) and every well-formed context made of Rust values, including the state
   of its list matchers, reading what was written into a fresh context gives
   the context back. *)
Theorem C14_ctx_roundtrip : forall (sch : scheme) (c : ctx),
  scheme_ok sch = true -> ctx_ok sch c = true -> ctx_rust sch c = true ->
  ctx_of_json sch (ctx_to_json sch c) = Ok c.
Proof. intros sch c Hs Hc Hr. exact (ctx_roundtrip_result sch c Hs (ctx_ok_typed sch c Hc) Hr). Qed.

(* ... also when mandatory fields are still unset *)
Theorem C14_ctx_roundtrip_partial_ctx : forall (sch : scheme) (c : ctx),
  scheme_ok sch = true -> ctx_typed sch c = true -> ctx_rust sch c = true ->
  ctx_of_json sch (ctx_to_json sch c) = Ok c.
Proof. exact ctx_roundtrip_result. Qed.

(* ... through every entry point; through a value tree when the scheme has no list *)
Theorem C14_ctx_roundtrip_every_entry : forall (sch : scheme) (c : ctx) (e : entry),
  scheme_ok sch = true -> ctx_typed sch c = true -> ctx_rust sch c = true ->
  (e = EValue -> sc_lists sch = []) ->
  ctx_of_json sch (supply e (ctx_to_json sch c)) = Ok c.
Proof.
  intros sch c e Hs Ht Hr He. destruct e; try (now apply ctx_roundtrip_result).
  rewrite entry_point_independent; [now apply ctx_roundtrip_result|].
  apply ctx_to_json_plain; auto. exact (proj1 (andb_prop _ _ Hs)).
Qed.

(* Whatever the JSON tree and the scheme: a successful read stores only values
   of the declared type of their field (the slots part of [ctx_ok] without the
   mandatory-set clause) and keeps one matcher per list. *)
Theorem C14_decode_type_safe : forall (sch : scheme) (j : json) (c : ctx),
  ctx_of_json sch j = Ok c -> ctx_typed sch c = true.
Proof. exact decode_type_safe. Qed.

(* The reader has three outcomes - done, refused, panicked (an index out of
   bounds, an unreachable!()) - and the third never happens, for any scheme and
   any JSON tree, deep type descriptors in "$lists" included: the read is total
   and ends in an error or in a well-typed context. *)
Theorem C14_decode_never_panics : forall (sch : scheme) (j : json), ctx_decode sch j <> Panicked.
Proof. exact decode_never_panics. Qed.

Theorem C14_decode_total : forall (sch : scheme) (j : json),
  ctx_of_json sch j = Err \/
  exists c, ctx_of_json sch j = Ok c /\ ctx_decode sch j = Done c /\ ctx_typed sch c = true.
Proof.
  intros sch j. pose proof (decode_never_panics sch j) as Hp. pose proof (decode_type_safe sch j) as Ht.
  unfold ctx_of_json in *. destruct (ctx_decode sch j) as [c| |]; [right|now left|easy]. exists c. auto.
Qed.

(* also into a context that already holds values *)
Theorem C14_decode_into_safe : forall (sch : scheme) (c : ctx) (j : json),
  ctx_typed sch c = true ->
  match ctx_decode_into sch c j with
  | Done c' => ctx_typed sch c' = true
  | Refused => True
  | Panicked => False
  end.
Proof. exact decode_into_safe. Qed.

(* a type descriptor deeper than any `Type` (34 layers and more) in the list
   section is refused (the repaired F4) *)
Theorem C14_deep_list_type_refused : forall (sch : scheme) (t : ty) (d : json) (rest : list (bytes * json)) (more : list json),
  (33 < depth t)%nat ->
  ctx_decode sch (JObj [(n_lists, JArr (JObj ((n_type, type_to_json t) :: (n_data, d) :: rest) :: more))]) = Refused.
Proof.
  intros sch t d rest more H. unfold ctx_decode, ctx_decode_into. cbn [ctx_entries_of_json]. unfold ctx_entry_of_json.
  change (bytes_eqb n_lists n_lists) with true. cbn iota. cbn [lists_of_json list_entries_of_json].
  unfold list_entry_of_json. change (bytes_eqb n_type n_type) with true. cbn iota.
  now rewrite (too_deep_rejected t H).
Qed.

(* The sequential reader is the state-free specification, for every document:
   every member acceptable on its own, the last member wins for each field and
   the last entry for each list; unknown field, wrong type, malformed list
   entry => error. *)
Theorem C14_ctx_json_exact : forall (sch : scheme) (j : json), ctx_of_json sch j = spec_ctx_of_json sch j.
Proof. exact ctx_of_json_spec. Qed.

(* The four entry points differ only in how the text becomes a tree; a value
   tree sorts the keys of every object and keeps the last of repeated ones.
   For a document without repeated keys and without entries in a list section
   the context read is the same. *)
Theorem C14_entry_point_independent_partial : forall (sch : scheme) (j : json) (e : entry),
  doc_plain j = true -> ctx_of_json sch (supply e j) = ctx_of_json sch j.
Proof. exact entry_point_independent. Qed.

(* The full statement drops the clause about list sections ... *)
Definition C14_entry_point_independent_full : Prop :=
  forall (sch : scheme) (j : json) (e : entry),
    no_dup_keys j = true -> ctx_of_json sch (supply e j) = ctx_of_json sch j.

(* ... and the code does not meet it: an entry {"type": T, "data": D} reaches
   the visitor from a value tree as data, type (BTreeMap order) and the visitor
   insists on "type" first.  Finding F10. *)
Theorem C14_value_tree_refuses_list_entries : forall (sch : scheme) (t d : json),
  ctx_of_json sch (supply EValue (JObj [(n_lists, JArr [JObj [(n_type, t); (n_data, d)]])])) = Err.
Proof. reflexivity. Qed.

Definition sch_one_list : scheme :=
  {| sc_fields := [ {| fd_name := [110]; fd_ty := TInt; fd_optional := true |} ];
     sc_functions := []; sc_lists := [(TInt, LkAlways)]; sc_nil_ne := true |}.
Definition ctx_one_list : ctx := {| cx_vals := [None]; cx_lists := [MAlways] |}.

Theorem C14_entry_point_independent_refuted : ~ C14_entry_point_independent_full.
Proof.
  intros H. specialize (H sch_one_list (ctx_to_json sch_one_list ctx_one_list) EValue eq_refl).
  vm_compute in H. discriminate H.
Qed.

(* the same witness as a round trip: written, then read through a value tree *)
Theorem C14_ctx_roundtrip_value_entry_refuted :
  exists (sch : scheme) (c : ctx),
    scheme_ok sch = true /\ ctx_ok sch c = true /\ ctx_rust sch c = true /\
    ctx_of_json sch (supply EStr (ctx_to_json sch c)) = Ok c /\
    ctx_of_json sch (supply EValue (ctx_to_json sch c)) = Err.
Proof. exists sch_one_list, ctx_one_list. repeat split; vm_compute; reflexivity. Qed.

(* Equal contexts give equal results for every filter; with the agreement of
   execution and denotation (C02/C03/C04) the context that came back gives, for
   every well-typed filter, the value the language assigns on the original. *)
Theorem C14_filters_agree_after_roundtrip : forall (sch : scheme) (c c' : ctx) (e : lexpr),
  scheme_ok sch = true -> ctx_ok sch c = true -> ctx_rust sch c = true ->
  ctx_of_json sch (ctx_to_json sch c) = Ok c' ->
  run_filter sch e c' = run_filter sch e c.
Proof. intros sch c c' e Hs Hc Hr H. rewrite (C14_ctx_roundtrip sch c Hs Hc Hr) in H. now injection H as <-. Qed.

Theorem C14_filters_denote_after_roundtrip : forall (sch : scheme) (c c' : ctx) (e : lexpr),
  scheme_ok sch = true -> ctx_ok sch c = true -> ctx_rust sch c = true ->
  wt_filter sch e = true -> fns_ok sch ->
  ctx_of_json sch (ctx_to_json sch c) = Ok c' ->
  exists b, run_filter sch e c' = Some b /\ denote_filter sch e c = Some b.
Proof.
  intros sch c c' e Hs Hc Hr Hwt Hf H.
  rewrite (C14_filters_agree_after_roundtrip sch c c' e Hs Hc Hr H). exact (filter_exec_is_denote sch e c Hwt Hc Hf).
Qed.

(* a map whose keys are not all UTF-8 (array-of-pairs form) holding arrays of
   byte strings in both forms, an i64 extreme, a mapped IPv6 address *)
Definition v_nested : value :=
  VMap (TArray TBytes) [([97], VArray TBytes [VBytes [104; 105]; VBytes [255; 254]]); ([255], VArray TBytes [])].
Definition v_mapped : value := VIp (V6 281473913978881%Z).   (* ::ffff:192.168.0.1 *)

Example C14_value_premises_satisfiable :
  has_type v_nested (TMap (TArray TBytes)) = true /\ value_rust v_nested = true /\
  value_to_json v_nested
  = JArr [JArr [JStr [97]; JArr [JStr [104; 105]; JArr [JNum 255%Z; JNum 254%Z]]]; JArr [JArr [JNum 255%Z]; JArr []]] /\
  value_of_json (TMap (TArray TBytes)) (value_to_json v_nested) = Ok v_nested /\
  value_to_json v_mapped = JStr (bytes_of_string "::ffff:192.168.0.1"%string) /\
  value_of_json TIp (value_to_json v_mapped) = Ok v_mapped /\
  value_of_json TInt (value_to_json (VInt (-9223372036854775808)%Z)) = Ok (VInt (-9223372036854775808)%Z).
Proof. repeat split; vm_compute; reflexivity. Qed.

Definition sch_demo : scheme :=
  {| sc_fields := [ {| fd_name := [110]; fd_ty := TInt; fd_optional := false |};
                    {| fd_name := [104]; fd_ty := TMap TBytes; fd_optional := true |};
                    {| fd_name := [105; 112]; fd_ty := TIp; fd_optional := true |} ];
     sc_functions := [];
     sc_lists := [(TInt, LkSet); (TIp, LkAlways); (TBytes, LkNever)];
     sc_nil_ne := true |}.
Definition ctx_demo : ctx :=
  {| cx_vals := [Some (VInt 9223372036854775807%Z); Some (VMap TBytes [([97], VBytes [255]); ([128], VBytes [])]); None];
     cx_lists := [MSet [([108; 49], [VInt 1%Z; VInt (-1)%Z]); ([108; 50], [])]; MAlways; MNever] |}.

Example C14_ctx_premises_satisfiable :
  scheme_ok sch_demo = true /\ ctx_ok sch_demo ctx_demo = true /\ ctx_rust sch_demo ctx_demo = true /\
  ctx_of_json sch_demo (ctx_to_json sch_demo ctx_demo) = Ok ctx_demo /\
  (exists c, ctx_of_json sch_demo (ctx_to_json sch_demo ctx_demo) = Ok c /\ c <> fresh_ctx sch_demo).
Proof.
  repeat split; try (vm_compute; reflexivity).
  exists ctx_demo. split; [vm_compute; reflexivity|]. vm_compute. discriminate.
Qed.

(* a plain document that is not in key order: the value tree reorders it *)
Definition doc_unsorted : json := JObj [([110], JNum 5%Z); ([104], JObj [([98], JStr [120]); ([97], JStr [121])])].

Example C14_entry_premise_satisfiable :
  doc_plain doc_unsorted = true /\ supply EValue doc_unsorted <> doc_unsorted /\
  exists c, ctx_of_json sch_demo (supply EValue doc_unsorted) = Ok c /\ ctx_of_json sch_demo doc_unsorted = Ok c.
Proof.
  split; [vm_compute; reflexivity|]. split; [vm_compute; discriminate|].
  eexists. split; vm_compute; reflexivity.
Qed.

(* refused documents: unknown field, wrong type, misordered list entry, a
   35-layer type descriptor *)
Example C14_refusals :
  ctx_of_json sch_demo (JObj [([120], JNum 1%Z)]) = Err /\
  ctx_of_json sch_demo (JObj [([110], JStr [49])]) = Err /\
  ctx_of_json sch_demo (JObj [([110], JNum 9223372036854775808%Z)]) = Err /\
  ctx_of_json sch_demo (JObj [(n_lists, JArr [JObj [(n_data, JObj []); (n_type, JStr n_Ip)]])]) = Err /\
  ctx_decode sch_demo (JObj [(n_lists, JArr [JObj [(n_type, type_to_json (Nat.iter 35%nat TArray TInt)); (n_data, JObj [])]])])
  = Refused.
Proof. repeat split; vm_compute; reflexivity. Qed.

Check C14_value_roundtrip : forall (v : value) (t : ty),
  has_type v t = true -> value_rust v = true -> value_of_json t (value_to_json v) = Ok v.
Check C14_ctx_roundtrip : forall (sch : scheme) (c : ctx),
  scheme_ok sch = true -> ctx_ok sch c = true -> ctx_rust sch c = true ->
  ctx_of_json sch (ctx_to_json sch c) = Ok c.
Check C14_decode_type_safe : forall (sch : scheme) (j : json) (c : ctx),
  ctx_of_json sch j = Ok c -> ctx_typed sch c = true.
Check C14_decode_never_panics : forall (sch : scheme) (j : json), ctx_decode sch j <> Panicked.
Check C14_ctx_json_exact : forall (sch : scheme) (j : json), ctx_of_json sch j = spec_ctx_of_json sch j.
Check C14_entry_point_independent_partial : forall (sch : scheme) (j : json) (e : entry),
  doc_plain j = true -> ctx_of_json sch (supply e j) = ctx_of_json sch j.
Check C14_entry_point_independent_refuted : ~ C14_entry_point_independent_full.
Check C14_filters_agree_after_roundtrip : forall (sch : scheme) (c c' : ctx) (e : lexpr),
  scheme_ok sch = true -> ctx_ok sch c = true -> ctx_rust sch c = true ->
  ctx_of_json sch (ctx_to_json sch c) = Ok c' ->
  run_filter sch e c' = run_filter sch e c.
