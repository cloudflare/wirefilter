(* C17 — `in $list` delegates exactly to the context's list matcher.
   The property theorems; what they rest on is in Proofs/ListProofs.v and
   Proofs/ListNameProofs.v (and, for the execution part, the general theorem
   of Proofs/FullProofs.v).

   Proved for every scheme, filter, context and history: delegation (a), the
   built-in lists (b), the list-name lexer in both directions, the `in $name`
   branch of ComparisonExpr::lex_with_lhs and, through the whole
   recursive-descent parser, that every accepted filter carries permitted names
   and refers to registered lists (c), the refinement of the abstract matcher
   state by the context's slots, round trip and clear (d).  Not modelled here:
   the JSON text of a serialized context (C14) - a serialized context is an
   abstract document. *)
From Coq Require Import List ZArith Bool.
From WF Require Import Base.Bytes Lang.Types Lang.Ast Lang.Context Sem.Compile Spec.Denote
     Spec.Typing Proofs.CallProofs Proofs.FullProofs Parse.Lex Parse.Parser Proofs.ParserClosed
     Sem.ListState Spec.C17 Proofs.ListProofs Proofs.ListNameProofs.
Import ListNotations.

(* ---- (a) delegation ---- *)

(* For every scheme, well-formed context and type-correct function library, and
   every well-typed `lhs in $name` (lhs a field, an index path, a map-each path or
   a function call, with any indexes): a list is registered for the type of lhs,
   the context holds a matcher for it, and the compiled comparison evaluates to
   exactly that matcher's answers for (name, value): one answer for the one
   selected value, one per element under [*], false when there is no value. *)
Theorem C17_inlist_delegates : forall sch c lhs li name t,
  ctx_ok sch c = true -> fns_ok sch ->
  wt_lexpr sch (EComparison lhs (CInList li name)) = Some t ->
  exists tl m base t0 ce,
    wt_iexpr sch lhs = Some tl /\ list_ty tl /\ list_index sch tl = Some li /\
    ctx_matcher sch c tl = Some m /\
    denote_ident sch lhs c = Some (base, t0, iexpr_idx lhs) /\
    compile_lexpr sch (EComparison lhs (CInList li name)) = Some ce /\
    runs c ce (in_list_spec (match_value m name) (select base (iexpr_idx lhs))).
Proof. exact inlist_delegates. Qed.

(* as a filter (no [*]): execute() returns the matcher's answer, false when absent *)
Theorem C17_inlist_filter_delegates : forall sch c lhs li name,
  ctx_ok sch c = true -> fns_ok sch ->
  wt_filter sch (EComparison lhs (CInList li name)) = true ->
  exists tl m base t0,
    wt_iexpr sch lhs = Some tl /\ list_ty tl /\ ctx_matcher sch c tl = Some m /\
    denote_ident sch lhs c = Some (base, t0, iexpr_idx lhs) /\
    run_filter sch (EComparison lhs (CInList li name)) c =
    Some (match select base (iexpr_idx lhs) with SOne v => match_value m name v | _ => false end).
Proof.
  intros sch c lhs li name Hc Hf Hwt. unfold wt_filter in Hwt.
  destruct (wt_lexpr sch (EComparison lhs (CInList li name))) as [[]|] eqn:Et; try discriminate Hwt.
  destruct (inlist_delegates sch c lhs li name TBool Hc Hf Et) as (tl & m & base & t0 & ce & H1 & H2 & _ & H4 & H5 & H6 & H7).
  destruct (wt_inlist_inv sch lhs li name TBool Et) as (_ & _ & _ & _ & Hshape).
  exists tl, m, base, t0. repeat split; try assumption. unfold run_filter. rewrite H6.
  (* the type is Bool, so there is no [*] and at most one value is selected *)
  destruct (Nat.eqb (map_each_count (iexpr_idx lhs)) 0) eqn:En; [|discriminate Hshape].
  unfold select in *. rewrite En in *.
  destruct base as [v|]; [destruct (get_path v (iexpr_idx lhs))|]; destruct ce; cbn in H7; easy.
Qed.

(* inside any filter: execution is the denotation, in which `in $name` means the above *)
Theorem C17_filter_exec_is_denote : forall sch e c,
  wt_filter sch e = true -> ctx_ok sch c = true -> fns_ok sch ->
  exists b, run_filter sch e c = Some b /\ denote_filter sch e c = Some b.
Proof. exact filter_exec_is_denote. Qed.

(* the values the comparison asks its matcher about are exactly the selected ones, in order *)
Theorem C17_queries : forall sch c lhs tl,
  ctx_ok sch c = true -> fns_ok sch -> wt_iexpr sch lhs = Some tl ->
  exists base t0, denote_ident sch lhs c = Some (base, t0, iexpr_idx lhs) /\
    lhs_values sch lhs c = Some (in_list_queries (select base (iexpr_idx lhs))).
Proof. exact lhs_values_spec. Qed.

(* ---- (b) the built-in lists ---- *)
Theorem C17_always_matches_all : forall name v, match_value MAlways name v = true.
Proof. exact always_matches_all. Qed.

Theorem C17_never_matches_none : forall name v, match_value MNever name v = false.
Proof. exact never_matches_none. Qed.

Theorem C17_always_list_exec : forall sch c lhs li name t tl,
  ctx_ok sch c = true -> fns_ok sch ->
  wt_lexpr sch (EComparison lhs (CInList li name)) = Some t ->
  wt_iexpr sch lhs = Some tl -> ctx_matcher sch c tl = Some MAlways ->
  exists base t0 ce,
    denote_ident sch lhs c = Some (base, t0, iexpr_idx lhs) /\
    compile_lexpr sch (EComparison lhs (CInList li name)) = Some ce /\
    runs c ce (match select base (iexpr_idx lhs) with
               | SAbsent => ROne false
               | SOne _ => ROne true
               | SMany l => RVec (map (fun _ => true) l)
               end).
Proof.
  intros sch c lhs li name t tl Hc Hf Hwt Htl Hm.
  destruct (inlist_delegates_to sch c lhs li name t tl MAlways Hc Hf Hwt Htl Hm) as (base & t0 & ce & H1 & H2 & H3).
  rewrite in_list_spec_always in H3. exists base, t0, ce. auto.
Qed.

Theorem C17_never_list_exec : forall sch c lhs li name t tl,
  ctx_ok sch c = true -> fns_ok sch ->
  wt_lexpr sch (EComparison lhs (CInList li name)) = Some t ->
  wt_iexpr sch lhs = Some tl -> ctx_matcher sch c tl = Some MNever ->
  exists base t0 ce,
    denote_ident sch lhs c = Some (base, t0, iexpr_idx lhs) /\
    compile_lexpr sch (EComparison lhs (CInList li name)) = Some ce /\
    runs c ce (match select base (iexpr_idx lhs) with
               | SAbsent | SOne _ => ROne false
               | SMany l => RVec (map (fun _ => false) l)
               end).
Proof.
  intros sch c lhs li name t tl Hc Hf Hwt Htl Hm.
  destruct (inlist_delegates_to sch c lhs li name t tl MNever Hc Hf Hwt Htl Hm) as (base & t0 & ce & H1 & H2 & H3).
  rewrite in_list_spec_never in H3. exists base, t0, ce. auto.
Qed.

(* whatever was done to a context, the slot of a built-in list holds the built-in matcher *)
Theorem C17_builtin_lists_fixed : forall sch ops t,
  lists_distinct sch -> all_optional sch -> fns_ok sch -> forallb lop_wf ops = true ->
  (kind_of sch t = Some LkAlways -> ctx_matcher sch (a_view sch (a_after sch ops)) t = Some MAlways) /\
  (kind_of sch t = Some LkNever -> ctx_matcher sch (a_view sch (a_after sch ops)) t = Some MNever).
Proof.
  intros sch ops t Hd Hopt Hf Hwf. pose proof (a_after_ok sch Hd Hopt Hf ops Hwf) as [Hm _]. unfold ctx_matcher.
  rewrite a_view_eq. cbn [cx_lists].
  pose proof (am_ok_slot sch _ t Hm) as Hs. pose proof (list_index_kind sch t) as Hk.
  destruct (list_index sch t) as [i|]; [|rewrite Hk; now split].
  destruct Hs as (k & m & _ & -> & _ & <- & ->). split; intros [= Hmk]; now destruct m.
Qed.

(* ---- (c) list names ---- *)

(* ListName::lex on `$`s: the longest run of name characters is read, and it is
   accepted exactly when it is a permitted name (not empty, no dot at either end) *)
Theorem C17_listname_lex_spec : forall s name rest,
  name_split s name rest ->
  lex_list_name (36 :: s)%N =
  if permitted_name name then LOk name rest else LErr EInvalidListName s (List.length s).
Proof. exact lex_list_name_spec. Qed.

Theorem C17_listname_split_exists : forall s, name_split s (name_run s) (skipn (List.length (name_run s)) s).
Proof. exact name_run_split. Qed.

Theorem C17_listname_accepts_iff : forall i name rest,
  lex_list_name i = LOk name rest <->
  exists s, i = (36 :: s)%N /\ name_split s name rest /\ permitted_name name = true.
Proof. exact lex_list_name_accepts. Qed.

Theorem C17_listname_no_dollar : forall i,
  starts_with [36]%N i = None -> lex_list_name i = LErr EExpectedLiteral i (List.length i).
Proof. intros i H. unfold lex_list_name. now rewrite H. Qed.

Theorem C17_permitted_name_iff : forall n,
  permitted_name n = true <->
  n <> [] /\ Forall (fun b => name_char b = true) n /\ hd 0%N n <> 46%N /\ last n 0%N <> 46%N.
Proof.
  intros n. unfold permitted_name. destruct n as [|b n]; [easy|].
  rewrite !andb_true_iff, !negb_true_iff, !N.eqb_neq, forallb_forall, Forall_forall. cbn [hd].
  split; [intros [[H1 H2] H3]|intros (_ & H1 & H2 & H3)]; repeat split; auto; discriminate.
Qed.

(* ComparisonExpr::lex_with_lhs on `in $...` after a left side of a list type:
   accepted exactly when the name is permitted and a list is registered for the
   type; InvalidListName / UnsupportedOp otherwise *)
Theorem C17_with_lhs_in_list : forall sch st f d input lhs t after_op s name rest,
  ty_iexpr sch lhs = Some t -> list_ty t ->
  lex_alts comparison_ops (skip_space input) = Some (OpIn, after_op) ->
  skip_space after_op = (36 :: s)%N -> name_split s name rest ->
  lex_with_lhs sch st (S f) d input lhs =
  if permitted_name name then
    match list_index sch t with
    | Some li => LOk (EComparison lhs (CInList li name)) rest
    | None => LErr EUnsupportedOp (skip_space input) (span_len (skip_space input) rest)
    end
  else LErr EInvalidListName s (List.length s).
Proof.
  intros sch st f d input lhs t after_op s name rest Ht Hl Hop Hs Hsp.
  rewrite (with_lhs_in_list sch st f d input lhs t after_op s Ht Hl Hop Hs), (lex_list_name_spec s name rest Hsp).
  now destruct (permitted_name name).
Qed.

Theorem C17_no_list_rejected : forall sch st f d input lhs t after_op s,
  ty_iexpr sch lhs = Some t -> list_ty t ->
  lex_alts comparison_ops (skip_space input) = Some (OpIn, after_op) ->
  skip_space after_op = (36 :: s)%N ->
  list_index sch t = None ->
  exists k a n, lex_with_lhs sch st (S f) d input lhs = LErr k a n /\ (k = EUnsupportedOp \/ k = EInvalidListName).
Proof. exact no_list_rejected. Qed.

(* through the whole parser: every `in $name` node of an accepted filter, however
   deeply nested (operands, parentheses, any/all, function arguments), carries a
   permitted name *)
Theorem C17_parsed_names_permitted : forall sch st text e rest,
  parse_filter sch st text = LOk e rest -> names_ok_lexpr e = true.
Proof. exact parsed_names_permitted. Qed.

(* ... and (C04) is well-typed, which for `lhs in $name` means: a list is registered for lhs's type *)
Theorem C17_inlist_well_typed_registered : forall sch lhs li name t,
  wt_lexpr sch (EComparison lhs (CInList li name)) = Some t ->
  exists tl, wt_iexpr sch lhs = Some tl /\ list_ty tl /\ list_index sch tl = Some li /\
             t = (if Nat.eqb (map_each_count (iexpr_idx lhs)) 0 then TBool else TArray TBool).
Proof. exact wt_inlist_inv. Qed.

(* through the whole parser: an accepted `lhs in $name` refers to the list registered for lhs's type *)
Theorem C17_parsed_inlist_registered : forall sch st text lhs li name rest,
  parse_filter sch st text = LOk (EComparison lhs (CInList li name)) rest ->
  exists tl, wt_iexpr sch lhs = Some tl /\ list_ty tl /\ list_index sch tl = Some li.
Proof.
  intros sch st text lhs li name rest H. pose proof (parse_filter_post sch st text) as P. rewrite H in P.
  destruct P as [[Hwt _] _]. unfold wt_filter in Hwt.
  destruct (wt_lexpr sch (EComparison lhs (CInList li name))) as [t|] eqn:Et; [|discriminate Hwt].
  destruct (wt_inlist_inv sch lhs li name t Et) as (tl & H1 & H2 & H3 & _). eauto.
Qed.

(* ---- (d) matcher state on a context ---- *)

(* For every scheme with at most one list per type, optional fields only and a
   type-correct function library, and every history of mutate / set a
   well-formed value / clear / round trip (with any rotation of "$lists") /
   load / dump / probe / execute: the context's slots produce exactly the
   observations of the abstract, type-keyed state - executions see the current
   state, a round trip changes nothing, clear empties the set lists - and no
   operation panics. *)
Theorem C17_matcher_state_history : forall sch ops,
  lists_distinct sch -> all_optional sch -> fns_ok sch -> forallb lop_wf ops = true ->
  l_run sch ops = a_run sch ops /\ ~ In BPanic (l_run sch ops).
Proof. exact matcher_state_history. Qed.

(* serialize, reorder "$lists" in any rotation, deserialize into a new context: the same context *)
Theorem C17_roundtrip_identity : forall sch a k,
  lists_distinct sch -> a_ok sch a ->
  exists d, serialize sch (a_view sch a) = Some d /\
    deserialize_into sch (new_ctx sch)
      {| cd_fields := cd_fields d; cd_lists := option_map (rotate k) (cd_lists d) |} = Ok (a_view sch a).
Proof. intros sch a k Hd. now apply roundtrip_identity. Qed.

Theorem C17_clear_empties : forall sch a t,
  match a_match (fst (a_step sch a LClear)) t with
  | Some (MSet s) => s = []
  | Some m => a_match a t = Some m
  | None => a_match a t = None
  end.
Proof. intros sch a t. cbn [a_step fst a_match]. now destruct (a_match a t) as [[| |s]|]. Qed.

(* ---- non-vacuity ---- *)
Definition ex_scheme : scheme :=
  {| sc_fields := [ {| fd_name := [110]%N; fd_ty := TInt; fd_optional := true |};
                    {| fd_name := [97]%N; fd_ty := TArray TBytes; fd_optional := true |};
                    {| fd_name := [105]%N; fd_ty := TIp; fd_optional := true |} ];
     sc_functions := [];
     sc_lists := [(TBytes, LkSet); (TInt, LkSet); (TIp, LkAlways)];
     sc_nil_ne := true |}.

Definition ex_ops : list lop :=
  [ LAdd TInt [108; 49]%N (VInt 7);
    LAdd TBytes [108; 49]%N (VBytes [120]%N);
    LSetVal 0 (VInt 7);
    LSetVal 1 (VArray TBytes [VBytes [120]%N; VBytes [121]%N]);
    LExec (EComparison (IField 0 []) (CInList 1 [108; 49]%N));
    LExec (EQuantLogical QAny (EComparison (IField 1 [IEach]) (CInList 0 [108; 49]%N)));
    LRoundTrip 2;
    LExec (EComparison (IField 0 []) (CInList 1 [108; 49]%N));
    LLoad [(TIp, DEmpty); (TBool, DEmpty)];
    LClear;
    LExec (EComparison (IField 0 []) (CInList 1 [108; 49]%N));
    LDump TInt ].

Example C17_history_premises_satisfiable :
  NoDup (map fst (sc_lists ex_scheme)) /\ forallb fd_optional (sc_fields ex_scheme) = true /\
  forallb lop_wf ex_ops = true /\
  map (fun b => match b with BBool x => Some x | _ => None end) (l_run ex_scheme ex_ops) =
  [None; None; None; None; Some true; Some true; None; Some true; None; None; Some false; None] /\
  nth 8 (l_run ex_scheme ex_ops) BOk = BErr ENoList /\
  nth 11 (l_run ex_scheme ex_ops) BOk = BDump (MSet []).
Proof.
  split; [repeat constructor; cbn; intuition discriminate|]. vm_compute. repeat split.
Qed.

Example C17_delegation_premises_satisfiable :
  let c := {| cx_vals := [Some (VInt 7); None; None]; cx_lists := [MSet []; MSet [([108; 49]%N, [VInt 7])]; MAlways] |} in
  ctx_ok ex_scheme c = true /\
  wt_lexpr ex_scheme (EComparison (IField 1 [IEach]) (CInList 0 [108; 49]%N)) = Some (TArray TBool) /\
  wt_filter ex_scheme (EComparison (IField 0 []) (CInList 1 [108; 49]%N)) = true /\
  run_filter ex_scheme (EComparison (IField 0 []) (CInList 1 [108; 49]%N)) c = Some true /\
  run_filter ex_scheme (EComparison (IField 2 []) (CInList 2 [120]%N)) c = Some false.
Proof. vm_compute. repeat split. Qed.

Example C17_parse_premises_satisfiable :
  (* `n in $l1`, `any(a[*] in $a..b)` are accepted; `n in $l1.` and `i in $x` (always-list) / `a in $x` (no list for arrays) *)
  parse_filter ex_scheme default_settings [110; 32; 105; 110; 32; 36; 108; 49]%N
    = LOk (EComparison (IField 0 []) (CInList 1 [108; 49]%N)) [] /\
  parse_filter ex_scheme default_settings [97; 110; 121; 40; 97; 91; 42; 93; 32; 105; 110; 32; 36; 97; 46; 46; 98; 41]%N
    = LOk (EQuantLogical QAny (EComparison (IField 1 [IEach]) (CInList 0 [97; 46; 46; 98]%N))) [] /\
  (exists a n, parse_filter ex_scheme default_settings [110; 32; 105; 110; 32; 36; 108; 49; 46]%N = LErr EInvalidListName a n) /\
  (exists a n, parse_filter ex_scheme default_settings [97; 32; 105; 110; 32; 36; 120]%N = LErr EUnsupportedOp a n).
Proof. vm_compute. repeat split; eauto. Qed.

Example C17_names_premises_satisfiable :
  name_split [97; 46; 46; 98; 95; 49; 59]%N [97; 46; 46; 98; 95; 49]%N [59]%N /\
  permitted_name [97; 46; 46; 98; 95; 49]%N = true /\
  permitted_name [97; 46]%N = false /\ permitted_name [46; 97]%N = false /\ permitted_name [] = false /\
  lex_list_name [36; 97; 46; 88]%N = LErr EInvalidListName [97; 46; 88]%N 3 /\
  lex_list_name [36; 97; 88]%N = LOk [97]%N [88]%N.
Proof. vm_compute. repeat split. Qed.

Check C17_inlist_delegates : forall sch c lhs li name t,
  ctx_ok sch c = true -> fns_ok sch ->
  wt_lexpr sch (EComparison lhs (CInList li name)) = Some t ->
  exists tl m base t0 ce,
    wt_iexpr sch lhs = Some tl /\ list_ty tl /\ list_index sch tl = Some li /\
    ctx_matcher sch c tl = Some m /\
    denote_ident sch lhs c = Some (base, t0, iexpr_idx lhs) /\
    compile_lexpr sch (EComparison lhs (CInList li name)) = Some ce /\
    runs c ce (in_list_spec (match_value m name) (select base (iexpr_idx lhs))).
Check C17_listname_accepts_iff : forall i name rest,
  lex_list_name i = LOk name rest <->
  exists s, i = (36 :: s)%N /\ name_split s name rest /\ permitted_name name = true.
Check C17_matcher_state_history : forall sch ops,
  lists_distinct sch -> all_optional sch -> fns_ok sch -> forallb lop_wf ops = true ->
  l_run sch ops = a_run sch ops /\ ~ In BPanic (l_run sch ops).
Check C17_parsed_names_permitted : forall sch st text e rest,
  parse_filter sch st text = LOk e rest -> names_ok_lexpr e = true.
