(* The panic catcher model (Sem/Panic.v, C19): the interpreter over program
   trees against Spec/C19.v, the step machine against the interpreter, threads
   under a schedule, the installation race and the installation under Once. *)
From Coq Require Import List NArith Bool Lia Arith.
From WF Require Import Sem.Panic Spec.C19.
Import ListNotations.
Local Open Scope N_scope.

Scheme step_mut := Induction for step Sort Prop
with prog_mut := Induction for prog Sort Prop.
Combined Scheme step_prog_ind from step_mut, prog_mut.

Lemma run_hook_state h ts m ev ts' :
  run_hook h ts m = (ev, Some ts') ->
  level ts' = level ts /\ enabled ts' = enabled ts /\ fb ts' = fb ts /\
  (last ts' = last ts \/ last ts' = Some m).
Proof.
  revert ev ts'. induction h as [| |next IH]; cbn [run_hook]; intros ev ts' H.
  1-2: injection H as _ <-; auto.
  destruct (0 <? level ts); [injection H as _ <-; cbn; auto|].
  destruct (fb ts); [eauto|discriminate].
Qed.

Lemma start_catching_some ts c ts1 :
  start_catching ts = Some (c, ts1) ->
  c = enabled ts /\ ts1 = (if c then set_level ts (level ts + 1) else ts).
Proof.
  unfold start_catching. destruct (enabled ts); [destruct (level ts <? u64_max)|];
    intros [= <- <-]; auto.
Qed.

Lemma stop_catching_succ ts l : level ts = l + 1 -> stop_catching ts = Some (set_level ts l).
Proof.
  intros H. unfold stop_catching. rewrite H, N.add_sub.
  destruct (N.eqb_spec (l + 1) 0); [lia|reflexivity].
Qed.

Definition not_aborted (o : outcome) : Prop :=
  match o with Aborted _ => False | _ => True end.

Lemma finish_catch_caught ev o ts2 g2 l :
  level ts2 = l + 1 -> not_aborted o ->
  finish_catch true (ev, o, ts2, g2) =
    (EEnter :: ev ++ [EExit (match o with Returned => ROk | _ => RErr (last ts2) end)],
     Returned, set_level ts2 l, g2).
Proof.
  intros Hl Hna. cbn [finish_catch]. rewrite (stop_catching_succ _ _ Hl).
  destruct o; [reflexivity|reflexivity|contradiction].
Qed.

Lemma install_hook_idem g : install_hook (install_hook g) = install_hook g.
Proof. unfold install_hook. destruct (flag g) eqn:E; cbn; [rewrite E|]; reflexivity. Qed.

Definition ours (g : gstate) : Prop := exists h, cur g = HOurs h.

Lemma ours_install g : ours g -> ours (install_hook g).
Proof. intros [h Hh]. unfold install_hook. destruct (flag g); [exists h; exact Hh|]. cbn. eexists; reflexivity. Qed.

Lemma installed_install g : installed g -> installed (install_hook g).
Proof.
  unfold installed, install_hook. intros H. destruct (flag g); [exact H|]. cbn.
  destruct (cur g); cbn; tauto.
Qed.

Lemma installed_ours g : installed g -> ours g.
Proof. unfold installed, ours. destruct (cur g) as [| |h]; try contradiction. eauto. Qed.

Lemma run_hook_ours h ts m :
  0 < level ts -> run_hook (HOurs h) ts m = ([], Some (set_last ts (Some m))).
Proof. intros Hl. cbn [run_hook]. apply N.ltb_lt in Hl. rewrite Hl. reflexivity. Qed.

(* What a piece of program leaves as it found it.  The global state changes
   only through the installation; (a) the nesting level afterwards is the level
   before, on the returning and on the panicking path; and with our hook
   current, a panic that escapes code running at level > 0 is the last one
   recorded. *)
Definition keeps (g : gstate) (ts : tstate) (r : result) : Prop :=
  let '(_, o, ts', g') := r in
  (g' = g \/ g' = install_hook g) /\
  (not_aborted o -> level ts' = level ts) /\
  (forall m, o = Unwound m -> ours g -> 0 < level ts -> last ts' = Some m).

Lemma run_keeps_mut :
  (forall s g ts, keeps g ts (run_step g ts s)) /\
  (forall p g ts, keeps g ts (run_prog g ts p)).
Proof.
  apply step_prog_ind.
  (* the steps that neither panic nor catch, and the empty program, return at once *)
  1-6, 9: intros; split; [auto|split; [reflexivity|discriminate]].
  - intros m0 g ts. cbn [run_step]. unfold do_panic.
    destruct (run_hook (cur g) ts m0) as [ev [ts0|]] eqn:Eh.
    + split; [auto|]. split; [intros _; apply (run_hook_state _ _ _ _ _ Eh)|].
      intros m [= <-] [h Hh] Hl. rewrite Hh, (run_hook_ours _ _ _ Hl) in Eh.
      injection Eh as _ <-. reflexivity.
    + split; [auto|]. split; [intros []|discriminate].
  - intros p IH g ts. cbn [run_step].
    destruct (start_catching ts) as [[c ts1]|] eqn:Es;
      [|split; [auto|split; [intros []|discriminate]]].
    apply start_catching_some in Es as [-> ->]. specialize (IH g).
    destruct (enabled ts).
    + (* catching: the body runs one level up, and what comes out has returned *)
      specialize (IH (set_level ts (level ts + 1))).
      destruct (run_prog g _ p) as [[[ev1 o1] ts2] g2]. destruct IH as (Hg & Hl & _).
      destruct o1 as [|m1|w1]; [| |split; [exact Hg|split; [intros []|discriminate]]].
      all: rewrite (finish_catch_caught _ _ _ _ (level ts) (Hl I)) by exact I.
      all: split; [exact Hg|split; [reflexivity|discriminate]].
    + specialize (IH ts). destruct (run_prog g ts p) as [[[ev1 o1] ts2] g2].
      destruct o1; exact IH.
  - intros s IHs p IHp g ts. cbn [run_prog]. specialize (IHs g ts).
    destruct (run_step g ts s) as [[[ev1 o1] ts1] g1].
    destruct o1 as [|m1|w1]; [|exact IHs|exact IHs].
    specialize (IHp g1 ts1). destruct (run_prog g1 ts1 p) as [[[ev2 o2] ts2] g2].
    destruct IHs as (Hg1 & Hl1 & _), IHp as (Hg2 & Hl2 & Hm2). specialize (Hl1 I).
    assert (Ho1 : ours g -> ours g1) by (destruct Hg1 as [-> | ->]; auto using ours_install).
    split; [|split].
    + destruct Hg1 as [-> | ->], Hg2 as [-> | ->]; auto using install_hook_idem.
    + intros Hna. rewrite (Hl2 Hna). exact Hl1.
    + intros m -> Ho Hl. apply (Hm2 m eq_refl (Ho1 Ho)). rewrite Hl1. exact Hl.
Qed.

Lemma run_step_keeps {s g ts ev o ts' g'} :
  run_step g ts s = (ev, o, ts', g') -> keeps g ts (ev, o, ts', g').
Proof. intros <-. apply run_keeps_mut. Qed.

Lemma run_prog_keeps {p g ts ev o ts' g'} :
  run_prog g ts p = (ev, o, ts', g') -> keeps g ts (ev, o, ts', g').
Proof. intros <-. apply run_keeps_mut. Qed.

Lemma run_prog_level p g ts ev o ts' g' :
  run_prog g ts p = (ev, o, ts', g') -> not_aborted o -> level ts' = level ts.
Proof. intros H. apply (run_prog_keeps H). Qed.

Lemma run_prog_ours p g ts ev o ts' g' :
  run_prog g ts p = (ev, o, ts', g') -> ours g -> ours g'.
Proof. intros H Ho. destruct (run_prog_keeps H) as ([-> | ->] & _); auto using ours_install. Qed.

Lemma run_step_installed s g ts ev o ts' g' :
  run_step g ts s = (ev, o, ts', g') -> installed g -> installed g'.
Proof. intros H Ho. destruct (run_step_keeps H) as ([-> | ->] & _); auto using installed_install. Qed.

Lemma run_prog_installed p g ts ev o ts' g' :
  run_prog g ts p = (ev, o, ts', g') -> installed g -> installed g'.
Proof. intros H Ho. destruct (run_prog_keeps H) as ([-> | ->] & _); auto using installed_install. Qed.

(* (b) what catch_panic returns, at any level and for any body. *)
Lemma catch_result_enabled p g ts ev o ts2 g2 :
  ours g -> enabled ts = true -> level ts < u64_max ->
  run_prog g (set_level ts (level ts + 1)) p = (ev, o, ts2, g2) ->
  match o with
  | Returned =>
      run_step g ts (Catch p) = (EEnter :: ev ++ [EExit ROk], Returned, set_level ts2 (level ts), g2)
  | Unwound m =>
      run_step g ts (Catch p) = (EEnter :: ev ++ [EExit (RErr (Some m))], Returned, set_level ts2 (level ts), g2)
      /\ last ts2 = Some m
  | Aborted w =>
      run_step g ts (Catch p) = (EEnter :: ev, Aborted w, ts2, g2)
  end.
Proof.
  intros Ho He Hl Hr. cbn [run_step]. unfold start_catching.
  apply N.ltb_lt in Hl as Hl'. rewrite He, Hl', Hr.
  destruct (run_prog_keeps Hr) as (_ & Hb & Hm).
  destruct o as [|m|w]; [| |reflexivity]; specialize (Hb I).
  - apply finish_catch_caught; [exact Hb|exact I].
  - rewrite (finish_catch_caught _ _ _ _ _ Hb) by exact I.
    rewrite (Hm m eq_refl Ho) by (cbn; lia). split; reflexivity.
Qed.

Lemma catch_result_disabled p g ts ev o ts2 g2 :
  enabled ts = false ->
  run_prog g ts p = (ev, o, ts2, g2) ->
  run_step g ts (Catch p) =
    match o with
    | Returned => (EEnter :: ev ++ [EExit ROk], Returned, ts2, g2)
    | _ => (EEnter :: ev, o, ts2, g2)
    end.
Proof.
  intros He Hr. cbn [run_step]. unfold start_catching. rewrite He, Hr.
  unfold finish_catch. destruct o; reflexivity.
Qed.

(* (c) a panic outside catch_panic reaches the previous hook. *)
Lemma run_hook_reaches_prev h ts m :
  reaches_prev h -> level ts = 0 -> fb ts = Continue -> run_hook h ts m = ([EPrev m], Some ts).
Proof.
  intros Hr Hl Hf. induction h as [| |next IH]; cbn in Hr |- *; try contradiction; [reflexivity|].
  rewrite Hl, Hf. cbn. auto.
Qed.

Lemma panic_outside_reaches_prev g ts m :
  installed g -> level ts = 0 -> fb ts = Continue ->
  run_step g ts (Panic m) = ([EPanic m; EPrev m], Unwound m, ts, g).
Proof.
  intros Hi Hl Hf. cbn [run_step]. unfold do_panic.
  assert (Hr : reaches_prev (cur g)).
  { unfold installed in Hi. destruct (cur g); cbn; auto. }
  rewrite (run_hook_reaches_prev _ _ _ Hr Hl Hf). reflexivity.
Qed.

Lemma outside_reaches_previous_hook p g ts ev o ts' g' m :
  installed g -> level ts = 0 ->
  run_prog g ts p = (ev, o, ts', g') -> not_aborted o ->
  installed g' /\ level ts' = 0 /\
  run_prog g' ts' (PCons (SetFallback Continue) (PCons (Panic m) PNil)) =
    ([EFallback (fb ts'); EPanic m; EPrev m], Unwound m, set_fb ts' Continue, g').
Proof.
  intros Hi Hl Hr Hna.
  pose proof (run_prog_installed _ _ _ _ _ _ _ Hr Hi) as Hi'.
  pose proof (run_prog_level _ _ _ _ _ _ _ Hr Hna) as Hb. rewrite Hl in Hb.
  repeat split; try assumption.
  cbn [run_prog]. cbn [run_step].
  change (do_panic g' (set_fb ts' Continue) m) with (run_step g' (set_fb ts' Continue) (Panic m)).
  rewrite panic_outside_reaches_prev by (auto). reflexivity.
Qed.

Lemma conc_abs ts : conc (level ts) (abs ts) = ts.
Proof. destruct ts; reflexivity. Qed.

(* The interpreter started in [conc d a] does what the specification says at
   depth [d] in [a]: same observations, same way of ending, and unless the
   process aborts the state is the specification's, still at level [d]. *)
Definition refines (d : N) (sr : sresult) (r : result) : Prop :=
  let '(ev, o, a') := sr in
  let '(ev', o', ts', _) := r in
  ev' = ev /\ o' = conc_outcome o /\ (o <> SAborted -> ts' = conc d a').

Lemma model_refines_spec_mut :
  (forall s g d a, installed g -> d + step_depth s <= u64_max ->
     refines d (spec_step d a s) (run_step g (conc d a) s)) /\
  (forall p g d a, installed g -> d + prog_depth p <= u64_max ->
     refines d (spec_prog d a p) (run_prog g (conc d a) p)).
Proof.
  apply step_prog_ind.
  (* the steps that neither panic nor catch, and the empty program, compute on both sides *)
  1-6, 9: intros; repeat split.
  - intros m g d a Hi _. cbn [spec_step run_step]. unfold spec_panic, do_panic.
    pose proof Hi as Hr. unfold installed in Hr.
    destruct (cur g) as [| |next]; try contradiction. cbn [run_hook level fb conc].
    destruct (0 <? d) eqn:Ed; [repeat split|].
    apply N.ltb_ge, N.le_0_r in Ed. destruct (a_fb a) eqn:Ef; [|repeat split; congruence].
    rewrite run_hook_reaches_prev by (cbn; auto). repeat split.
  - intros p IH g d a Hi Hd. cbn [step_depth] in Hd. cbn [spec_step].
    destruct (a_enabled a) eqn:Ee.
    + specialize (IH g (d + 1) a Hi ltac:(lia)).
      destruct (spec_prog (d + 1) a p) as [[ev1 o1] a1].
      destruct (run_prog g (conc (d + 1) a) p) as [[[ev1' o1'] ts2] g2] eqn:Er.
      destruct IH as (-> & -> & Hts).
      pose proof (catch_result_enabled p g (conc d a) _ _ _ _ (installed_ours _ Hi) Ee ltac:(cbn; lia) Er) as Hc.
      destruct o1 as [|m1|]; cbn [conc_outcome spec_catch] in *.
      * rewrite Hc, Hts by discriminate. repeat split.
      * destruct Hc as [-> _]. rewrite Hts by discriminate. repeat split.
      * rewrite Hc. repeat split. congruence.
    + specialize (IH g d a Hi ltac:(lia)).
      destruct (spec_prog d a p) as [[ev1 o1] a1].
      destruct (run_prog g (conc d a) p) as [[[ev1' o1'] ts2] g2] eqn:Er.
      destruct IH as (-> & -> & Hts).
      rewrite (catch_result_disabled p g (conc d a) _ _ _ _ Ee Er).
      destruct o1; repeat split; exact Hts.
  - intros s IHs p IHp g d a Hi Hd. cbn [prog_depth] in Hd. cbn [spec_prog run_prog].
    specialize (IHs g d a Hi ltac:(lia)).
    destruct (spec_step d a s) as [[ev1 o1] a1].
    destruct (run_step g (conc d a) s) as [[[ev1' o1'] ts1] g1] eqn:Es.
    destruct IHs as (-> & -> & Hts).
    destruct o1 as [|m1|]; [|repeat split; exact Hts ..].
    rewrite Hts by discriminate.
    specialize (IHp g1 d a1 (run_step_installed _ _ _ _ _ _ _ Es Hi) ltac:(lia)).
    destruct (spec_prog d a1 p) as [[ev2 o2] a2].
    destruct (run_prog g1 (conc d a1) p) as [[[ev2' o2'] ts2] g2].
    destruct IHp as (-> & -> & Hts2). repeat split; exact Hts2.
Qed.

Inductive steps (d : design) : gstate * thread -> gstate * thread -> Prop :=
| steps_refl c : steps d c c
| steps_step g t c : steps d (tstep d g t) c -> steps d (g, t) c.

Lemma steps_trans d c1 c2 c3 : steps d c1 c2 -> steps d c2 c3 -> steps d c1 c3.
Proof.
  intros H12 H23. induction H12 as [c|g t c H IH]; [exact H23|].
  apply steps_step. exact (IH H23).
Qed.

Lemma steps_one d g t : steps d (g, t) (tstep d g t).
Proof. apply steps_step. apply steps_refl. Qed.

Lemma unwind_nil m ts tr : unwind m ts [] tr = mk_thread ts [] tr (Dead m).
Proof. reflexivity. Qed.

Lemma unwind_skip_items m ts p k tr : unwind m ts (items_of p ++ k) tr = unwind m ts k tr.
Proof. induction p as [|s p IH]; [reflexivity|exact IH]. Qed.

Definition status_of (o : outcome) : status :=
  match o with Returned => Running | Unwound m => Dead m | Aborted w => Crashed w end.

(* Where the machine stands after the code whose interpretation is
   (ev, o, ts') has run in front of the continuation k. *)
Definition after (o : outcome) (ts' : tstate) (k : list item) (tr : list event) (t : thread) : Prop :=
  match o with
  | Returned => t = mk_thread ts' k tr Running
  | Unwound m => t = unwind m ts' k tr
  | Aborted w => exists k', t = mk_thread ts' k' tr (Crashed w)
  end.

(* The machine started in [t0] reaches what the interpreter's result describes. *)
Definition lands (d : design) (g : gstate) (t0 : thread) (k : list item) (tr : list event) (r : result) : Prop :=
  let '(ev, o, ts', g') := r in
  exists t, steps d (g, t0) (g', t) /\ after o ts' k (tr ++ ev) t.

Lemma lands_after_steps d g t0 g1 t1 k tr r :
  steps d (g, t0) (g1, t1) -> lands d g1 t1 k tr r -> lands d g t0 k tr r.
Proof.
  destruct r as [[[ev o] ts'] g']. intros H (t & Hs & Ha).
  exists t. split; [eapply steps_trans; eassumption|exact Ha].
Qed.

(* The end of a catch_panic whose body has been run: [IExit c] against [finish_catch c]. *)
Lemma exit_lands d g c k tr ev1 o1 ts2 t1 :
  after o1 ts2 (IExit c :: k) (tr ++ EEnter :: ev1) t1 ->
  lands d g t1 k tr (finish_catch c (ev1, o1, ts2, g)).
Proof.
  destruct c, o1 as [|m1|w1]; cbn [finish_catch after unwind]; intros Ha.
  3, 5, 6: exists t1; split; [apply steps_refl|exact Ha].
  - (* returned into a catching frame: stop_catching is the next step *)
    subst t1. destruct (stop_catching ts2) as [ts3|] eqn:Est; eexists; split.
    1, 3: apply steps_step; cbn; rewrite Est; apply steps_refl.
    + cbn. rewrite <- app_assoc. reflexivity.
    + eexists; reflexivity.
  - (* unwound into it: [unwind] has done the same *)
    destruct (stop_catching ts2) as [ts3|]; exists t1; (split; [apply steps_refl|]).
    + rewrite Ha, <- app_assoc. reflexivity.
    + eexists; exact Ha.
  - subst t1. eexists; split; [exact (steps_one _ _ _)|]. cbn. rewrite <- app_assoc. reflexivity.
Qed.

Lemma machine_simulates_mut :
  (forall s d g ts k tr, lands d g (mk_thread ts (IStep s :: k) tr Running) k tr (run_step g ts s)) /\
  (forall p d g ts k tr, lands d g (mk_thread ts (items_of p ++ k) tr Running) k tr (run_prog g ts p)).
Proof.
  apply step_prog_ind.
  (* enable, disable, set_fallback_mode and the queries are one machine step *)
  1-2, 4-6: intros; eexists; split; [exact (steps_one _ _ _)|reflexivity].
  - (* the installation: one step, or three in the racy design with the flag unset *)
    intros [|] g ts k tr; [|eexists; split; [exact (steps_one _ _ _)|reflexivity]].
    cbn [run_step lands]. unfold install_hook. destruct (flag g) eqn:Ef; eexists; (split; [|reflexivity]).
    + apply steps_step. cbn. rewrite Ef. apply steps_refl.
    + apply steps_step. cbn. rewrite Ef. do 2 apply steps_step. apply steps_refl.
  - intros m d g ts k tr. cbn [run_step lands]. unfold do_panic.
    destruct (run_hook (cur g) ts m) as [ev0 [ts0|]] eqn:Eh; eexists;
      (split; [apply steps_step; cbn; rewrite Eh; apply steps_refl|]); [reflexivity|eexists; reflexivity].
  - intros p IH d g ts k tr. cbn [run_step].
    destruct (start_catching ts) as [[c ts1]|] eqn:Es.
    + (* entering, the body, the exit *)
      specialize (IH d g ts1 (IExit c :: k) (tr ++ [EEnter])).
      destruct (run_prog g ts1 p) as [[[ev1 o1] ts2] g2]. destruct IH as (t1 & Hs1 & Ha1).
      rewrite <- app_assoc in Ha1.
      apply (lands_after_steps _ _ _ g2 t1); [|apply exit_lands; exact Ha1].
      apply steps_step. cbn. rewrite Es. exact Hs1.
    + eexists. split; [apply steps_step; cbn; rewrite Es; apply steps_refl|].
      cbn. rewrite app_nil_r. eexists; reflexivity.
  - intros d g ts k tr. exists (mk_thread ts k tr Running). split; [apply steps_refl|].
    cbn. rewrite app_nil_r. reflexivity.
  - intros s IHs p IHp d g ts k tr. cbn [run_prog items_of app].
    specialize (IHs d g ts (items_of p ++ k) tr).
    destruct (run_step g ts s) as [[[ev1 o1] ts1] g1]. destruct IHs as (t1 & Hs1 & Ha1).
    destruct o1 as [|m1|w1]; cbn [after] in Ha1.
    + subst t1. specialize (IHp d g1 ts1 k (tr ++ ev1)).
      destruct (run_prog g1 ts1 p) as [[[ev2 o2] ts2] g2]. destruct IHp as (t2 & Hs2 & Ha2).
      exists t2. split; [eapply steps_trans; eassumption|]. rewrite app_assoc. exact Ha2.
    + rewrite unwind_skip_items in Ha1. exists t1. split; assumption.
    + exists t1. split; assumption.
Qed.

Lemma steps_solo d c1 c2 : steps d c1 c2 -> exists n, solo d n (fst c1) (snd c1) = c2.
Proof.
  intros H. induction H as [[g t]|g t c H [n IH]].
  - exists O. reflexivity.
  - exists (S n). cbn [solo fst snd]. destruct (tstep d g t) as [g1 t1]. exact IH.
Qed.

Lemma finished_stuck d g t : finished t = true -> tstep d g t = (g, t).
Proof.
  unfold finished, tstep. destruct (st t); [|reflexivity|reflexivity].
  destruct (code t); [reflexivity|discriminate].
Qed.

Lemma solo_finished d n g t : finished t = true -> solo d n g t = (g, t).
Proof. intros Hf. induction n as [|n IH]; [reflexivity|]. cbn [solo]. rewrite finished_stuck by exact Hf. exact IH. Qed.

Lemma solo_add d n1 n2 g t :
  solo d (n1 + n2) g t = solo d n2 (fst (solo d n1 g t)) (snd (solo d n1 g t)).
Proof.
  revert g t. induction n1 as [|n1 IH]; intros g t; [reflexivity|].
  cbn [solo plus]. destruct (tstep d g t) as [g1 t1]. apply IH.
Qed.

Lemma solo_deterministic d n1 n2 g t :
  finished (snd (solo d n1 g t)) = true -> finished (snd (solo d n2 g t)) = true ->
  solo d n1 g t = solo d n2 g t.
Proof.
  (* the shorter run, once finished, is not moved by the steps the longer one adds *)
  assert (H : forall n m, finished (snd (solo d n g t)) = true -> solo d (n + m) g t = solo d n g t).
  { intros n m Hf. rewrite solo_add, (solo_finished d m _ _ Hf). destruct (solo d n g t); reflexivity. }
  intros H1 H2. destruct (Nat.le_ge_cases n1 n2) as [Hle|Hle].
  - rewrite <- (H n1 (n2 - n1)%nat H1). f_equal. lia.
  - rewrite <- (H n2 (n1 - n2)%nat H2). f_equal. lia.
Qed.

Definition final_of (r : result) (t : thread) : Prop :=
  let '(ev, o, ts, _) := r in
  trace t = ev /\ tst t = ts /\ st t = status_of o /\ (not_aborted o -> code t = []).

Lemma final_of_trace r t : final_of r t -> trace t = fst (fst (fst r)).
Proof. destruct r as [[[ev o] ts] g]. intros H. apply H. Qed.

Lemma alone_is_run_prog d n g ts p :
  finished (snd (solo d n g (thread_of ts p))) = true ->
  final_of (run_prog g ts p) (snd (solo d n g (thread_of ts p))) /\
  fst (solo d n g (thread_of ts p)) = snd (run_prog g ts p).
Proof.
  intros Hf. pose proof (proj2 machine_simulates_mut p d g ts [] []) as H.
  rewrite app_nil_r in H. fold (thread_of ts p) in H.
  destruct (run_prog g ts p) as [[[ev o] ts'] g']. destruct H as (t & Hs & Ha).
  destruct (steps_solo _ _ _ Hs) as [n' Hn']. cbn [fst snd app] in Hn', Ha.
  (* with nothing behind the program, where the machine lands is final *)
  assert (Hft : finished t = true /\ final_of (ev, o, ts', g') t).
  { destruct o as [|m|w]; cbn [after unwind] in Ha; [| |destruct Ha as [k' Ha]];
      subst t; repeat split. contradiction. }
  rewrite (solo_deterministic d n n') by (rewrite ?Hn'; tauto).
  rewrite Hn'. split; [apply Hft|reflexivity].
Qed.

(* No half-done installation in a thread's remaining code. *)
Definition plain_item (i : item) : Prop :=
  match i with ITake | ISet _ => False | _ => True end.
Definition plain (t : thread) : Prop := Forall plain_item (code t).

Lemma plain_items_of p : Forall plain_item (items_of p).
Proof. induction p as [|s p IH]; constructor; [exact I|exact IH]. Qed.

Lemma plain_thread_of ts p : plain (thread_of ts p).
Proof. apply plain_items_of. Qed.

Lemma plain_unwind m ts k tr : Forall plain_item k -> plain (unwind m ts k tr).
Proof.
  intros H. induction H as [|i k Hi Hk IH]; [constructor|].
  cbn [unwind]. destruct i as [s|[|]| |h]; try exact IH.
  destruct (stop_catching ts); exact Hk.
Qed.

Lemma install_hook_flag g : flag g = true -> install_hook g = g.
Proof. unfold install_hook. intros ->. reflexivity. Qed.

(* With the flag set a plain thread's step leaves the global state alone (the
   installation returns at its flag test) and the thread stays plain. *)
Lemma tstep_flag_set d g t :
  plain t -> flag g = true -> exists t1, tstep d g t = (g, t1) /\ plain t1.
Proof.
  intros Hp Hf. unfold tstep. destruct (st t); eauto.
  unfold plain in Hp. destruct (code t) as [|i k] eqn:Ec; [rewrite <- Ec in Hp; eauto|].
  inversion Hp as [|i0 k0 Hi Hk]; subst.
  destruct i as [s|[|]| |h]; try contradiction.
  - destruct s as [| | |f| | |m|p]; try (eexists; split; [reflexivity|exact Hk]).
    + destruct d; [rewrite Hf|rewrite install_hook_flag by exact Hf];
        (eexists; split; [reflexivity|exact Hk]).
    + destruct (run_hook (cur g) (tst t) m) as [ev [ts'|]];
        (eexists; split; [reflexivity|]); [apply plain_unwind|]; exact Hk.
    + destruct (start_catching (tst t)) as [[c ts1]|];
        (eexists; split; [reflexivity|]); [|exact Hk].
      apply Forall_app. split; [apply plain_items_of|]. constructor; [exact I|exact Hk].
  - destruct (stop_catching (tst t)); eexists; split; reflexivity || exact Hk.
  - eexists; split; [reflexivity|exact Hk].
Qed.

Lemma solo_flag_set d n g t :
  plain t -> flag g = true -> plain (snd (solo d n g t)) /\ fst (solo d n g t) = g.
Proof.
  revert t. induction n as [|n IH]; intros t Hp Hf; [auto|].
  cbn [solo]. destruct (tstep_flag_set d g t Hp Hf) as (t1 & -> & Hp'). apply IH; assumption.
Qed.

Definition ticks (w : bool) (sched : list bool) : nat := length (filter (Bool.eqb w) sched).

(* (d) Once the hook is installed, any interleaving gives each thread exactly
   its own solo run: as many of its own steps as the schedule gave it (all of
   them unless the process aborted), the global state untouched. *)
Lemma interleaving_independent d sched : forall g a b,
  flag g = true -> plain a -> plain b ->
  exists na nb,
    interleave d sched g a b = (g, snd (solo d na g a), snd (solo d nb g b)) /\
    (na <= ticks true sched)%nat /\ (nb <= ticks false sched)%nat /\
    (crashed (snd (solo d na g a)) || crashed (snd (solo d nb g b)) = false ->
     na = ticks true sched /\ nb = ticks false sched).
Proof.
  induction sched as [|w sched IH]; intros g a b Hf Ha Hb.
  - exists O, O. cbn. auto.
  - cbn [interleave]. destruct (crashed a || crashed b) eqn:Ecr.
    + exists O, O. cbn [solo snd]. rewrite Ecr.
      repeat split; try apply Nat.le_0_l; discriminate.
    + unfold ticks in *. destruct w; cbn [filter Bool.eqb length].
      * destruct (tstep_flag_set d g a Ha Hf) as (a1 & Et & Ha'). rewrite Et.
        destruct (IH g a1 b Hf Ha' Hb) as (na & nb & Hi & Hla & Hlb & Hex).
        exists (S na), nb. cbn [solo]. rewrite Et.
        repeat split; [exact Hi|lia|exact Hlb|apply Hex in H; lia ..].
      * destruct (tstep_flag_set d g b Hb Hf) as (b1 & Et & Hb'). rewrite Et.
        destruct (IH g a b1 Hf Ha Hb') as (na & nb & Hi & Hla & Hlb & Hex).
        exists na, (S nb). cbn [solo]. rewrite Et.
        repeat split; [exact Hi|exact Hla|lia|apply Hex in H; lia ..].
Qed.

(* Any number of threads.  [sched] names the thread that moves next; a number
   that names no thread moves nothing.  process::abort() on any thread ends the
   process. *)
Fixpoint set_nth (l : list thread) (i : nat) (x : thread) : list thread :=
  match l, i with
  | [], _ => []
  | _ :: l', O => x :: l'
  | y :: l', S i' => y :: set_nth l' i' x
  end.

Fixpoint interleave_n (d : design) (sched : list nat) (g : gstate) (ts : list thread)
  : gstate * list thread :=
  match sched with
  | [] => (g, ts)
  | i :: sched' =>
      if existsb crashed ts then (g, ts)
      else match nth_error ts i with
           | Some t => let '(g', t') := tstep d g t in interleave_n d sched' g' (set_nth ts i t')
           | None => interleave_n d sched' g ts
           end
  end.

Definition solo_image (d : design) (g : gstate) (t t' : thread) : Prop :=
  exists n, t' = snd (solo d n g t).

Lemma solo_image_refl d g t : solo_image d g t t.
Proof. exists O. reflexivity. Qed.

Lemma Forall2_solo_refl d g ts : Forall2 (solo_image d g) ts ts.
Proof. induction ts as [|t ts IH]; constructor; [apply solo_image_refl|exact IH]. Qed.

Lemma set_nth_plain ts i t' : Forall plain ts -> plain t' -> Forall plain (set_nth ts i t').
Proof.
  intros Hts Ht'. revert i. induction Hts as [|t ts Ht Hts IH]; intros i; [constructor|].
  destruct i as [|i]; constructor; auto.
Qed.

Lemma Forall2_solo_step d g ts i t t1 ts' :
  nth_error ts i = Some t -> tstep d g t = (g, t1) ->
  Forall2 (solo_image d g) (set_nth ts i t1) ts' -> Forall2 (solo_image d g) ts ts'.
Proof.
  revert i ts'. induction ts as [|t0 ts IH]; intros i ts' Hn Et HF; [destruct i; discriminate|].
  destruct i as [|i]; cbn [nth_error set_nth] in *;
    inversion HF as [|x y l l' Hxy Hl]; subst; constructor; eauto.
  injection Hn as ->. destruct Hxy as [n ->]. exists (S n). cbn [solo]. rewrite Et. reflexivity.
Qed.

Lemma interleaving_n_independent d sched : forall g ts,
  flag g = true -> Forall plain ts ->
  exists ts', interleave_n d sched g ts = (g, ts') /\ Forall2 (solo_image d g) ts ts'.
Proof.
  induction sched as [|i sched IH]; intros g ts Hf Hp.
  - exists ts. split; [reflexivity|apply Forall2_solo_refl].
  - cbn [interleave_n]. destruct (existsb crashed ts).
    + exists ts. split; [reflexivity|apply Forall2_solo_refl].
    + destruct (nth_error ts i) as [t|] eqn:En; [|apply IH; assumption].
      pose proof (proj1 (Forall_forall _ _) Hp t (nth_error_In _ _ En)) as Ht.
      destruct (tstep_flag_set d g t Ht Hf) as (t1 & Et & Hp1). rewrite Et.
      destruct (IH g (set_nth ts i t1) Hf (set_nth_plain ts i t1 Hp Hp1)) as (ts' & Hi & HF).
      exists ts'. split; [exact Hi|]. eapply Forall2_solo_step; eassumption.
Qed.

Lemma Forall2_nth_error {A B} (R : A -> B -> Prop) l l' i y :
  Forall2 R l l' -> nth_error l' i = Some y -> exists x, nth_error l i = Some x /\ R x y.
Proof.
  intros HF. revert i. induction HF as [|a b l l' Hab HF IH]; intros [|i] Hn; try discriminate.
  - injection Hn as <-. exists a. split; [reflexivity|exact Hab].
  - apply IH. exact Hn.
Qed.

Lemma interleaving_n_matches_alone d sched g (ps : list (tstate * prog)) g' ts' :
  flag g = true ->
  interleave_n d sched g (map (fun tp => thread_of (fst tp) (snd tp)) ps) = (g', ts') ->
  g' = g /\
  forall i t', nth_error ts' i = Some t' -> finished t' = true ->
    exists tsi p, nth_error ps i = Some (tsi, p) /\ final_of (run_prog g tsi p) t'.
Proof.
  intros Hf Hi.
  assert (Hp : Forall plain (map (fun tp => thread_of (fst tp) (snd tp)) ps)).
  { rewrite Forall_map. rewrite Forall_forall. intros [tsi p] _. apply plain_thread_of. }
  destruct (interleaving_n_independent d sched g _ Hf Hp) as (ts2 & Hi2 & HF).
  rewrite Hi in Hi2. injection Hi2 as -> ->. split; [reflexivity|].
  intros i t' Hn Hfin.
  destruct (Forall2_nth_error _ _ _ _ _ HF Hn) as (t0 & Hn0 & [n ->]).
  rewrite nth_error_map in Hn0. destruct (nth_error ps i) as [[tsi p]|] eqn:Ep; [|discriminate].
  cbn [option_map fst snd] in Hn0. injection Hn0 as <-.
  exists tsi, p. split; [reflexivity|]. apply alone_is_run_prog. exact Hfin.
Qed.

(* The first installation, raced.  Both threads begin with
   panic_catcher_set_hook(); the flag is not set yet and [h] is the hook the
   application installed before. *)

Definition g_fresh (h : hook) : gstate := mk_gstate false h.

(* The intended statement: whatever the schedule, a thread that has finished
   observed what it observes alone, and when both have finished the hook is
   ours with the previous hook behind it. *)
Definition install_race_benign (d : design) : Prop :=
  forall h pa pb tsa tsb sched g' a' b',
    interleave d sched (g_fresh h)
      (thread_of tsa (PCons InstallHook pa)) (thread_of tsb (PCons InstallHook pb)) = (g', a', b') ->
    (finished a' = true -> final_of (run_prog (g_fresh h) tsa (PCons InstallHook pa)) a') /\
    (finished b' = true -> final_of (run_prog (g_fresh h) tsb (PCons InstallHook pb)) b') /\
    (finished a' = true -> finished b' = true -> g' = mk_gstate true (HOurs h)).

(* Witness 1.  B passes the flag test; A installs completely, enables catching
   and enters catch_panic; B runs take_hook() (std's default hook is now
   current); A panics inside catch_panic: the default hook runs, nothing is
   recorded, catch_panic returns the "<unknown>" text (or, with an earlier
   caught panic, that earlier panic's text); B runs set_hook(). *)
Definition race1_a : prog :=
  PCons InstallHook (PCons Enable (PCons (Catch (PCons (Panic 1) PNil)) PNil)).
Definition race1_b : prog := PCons InstallHook PNil.
Definition race1_sched : list bool :=
  [false; true; true; true; true; true; false; true; false].

Definition race1s_a : prog :=
  PCons InstallHook (PCons Enable (PCons (Catch (PCons (Panic 7) PNil))
    (PCons (Catch (PCons (Panic 1) PNil)) PNil))).
Definition race1s_sched : list bool :=
  [false; true; true; true; true; true; true; true; false; true; false].

(* Witness 2.  Both pass the flag test, both run take_hook() (the second one
   takes std's default hook), both run set_hook(): the hook that stays is ours
   with the DEFAULT hook behind it; the previous hook is lost for good, a panic
   outside catch_panic no longer reaches it. *)
Definition race2_a : prog := PCons InstallHook (PCons (Panic 1) PNil).
Definition race2_sched : list bool := [true; false; true; false; true; false; true].

(* The repaired design: the installation runs under std::sync::Once, i.e. as
   one indivisible step that has an effect at most once. *)

Lemma once_first_step ts p g h :
  g = g_fresh h \/ g = mk_gstate true (HOurs h) ->
  tstep Once g (thread_of ts (PCons InstallHook p))
  = (mk_gstate true (HOurs h), mk_thread ts (items_of p) [EUnit] Running).
Proof. intros [-> | ->]; reflexivity. Qed.

(* Started before or after the other thread's installation, a thread that
   begins by installing runs the same way, and has not finished before it
   moves. *)
Lemma once_alone h ts p n :
  finished (snd (solo Once n (mk_gstate true (HOurs h)) (thread_of ts (PCons InstallHook p)))) = true ->
  final_of (run_prog (g_fresh h) ts (PCons InstallHook p))
           (snd (solo Once n (mk_gstate true (HOurs h)) (thread_of ts (PCons InstallHook p)))).
Proof.
  destruct n as [|n]; [discriminate|].
  replace (solo Once (S n) (mk_gstate true (HOurs h)) (thread_of ts (PCons InstallHook p)))
    with (solo Once (S n) (g_fresh h) (thread_of ts (PCons InstallHook p)))
    by (cbn [solo]; rewrite !(once_first_step ts p _ h) by auto; reflexivity).
  apply alone_is_run_prog.
Qed.

(* Whoever moves first installs, and moves as it would with the hook already
   installed: the run is one that starts after the installation. *)
Lemma once_start h tsa pa tsb pb w sched :
  interleave Once (w :: sched) (g_fresh h)
    (thread_of tsa (PCons InstallHook pa)) (thread_of tsb (PCons InstallHook pb))
  = interleave Once (w :: sched) (mk_gstate true (HOurs h))
      (thread_of tsa (PCons InstallHook pa)) (thread_of tsb (PCons InstallHook pb)).
Proof. cbn [interleave]. destruct w; rewrite !(once_first_step _ _ _ h) by auto; reflexivity. Qed.

Lemma install_once_benign : install_race_benign Once.
Proof.
  intros h pa pb tsa tsb sched g' a' b' Hi.
  destruct sched as [|w sched]; [injection Hi as <- <- <-; repeat split; discriminate|].
  rewrite once_start in Hi.
  destruct (interleaving_independent Once (w :: sched) (mk_gstate true (HOurs h)) _ _ eq_refl
              (plain_thread_of tsa (PCons InstallHook pa)) (plain_thread_of tsb (PCons InstallHook pb)))
    as (na & nb & Hi' & _).
  rewrite Hi in Hi'. injection Hi' as -> -> ->. repeat split; apply once_alone.
Qed.
