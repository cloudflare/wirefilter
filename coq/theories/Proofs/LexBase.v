(* Common lemmas for the lexer proofs (C06 / C05): [safe], matches on byte literals, starts_with,
   take_while, take, the length of a character, digits in a radix. *)
From Coq Require Import List ZArith Bool Lia.
From Coq Require Import ZifyBool.
From WF Require Import Base.Bytes Parse.Lex Spec.C06.
Import ListNotations.
Local Open Scope Z_scope.

Definition safe {A} (r : lres A) : Prop := r <> LPanic /\ r <> LFuel.

Lemma is_hexdigit_spec : forall b, is_hexdigit b = hex_digit_byte b.
Proof. reflexivity. Qed.
Lemma is_digit_spec : forall b, Lex.is_digit b = dec_digit_byte b.
Proof. reflexivity. Qed.
Lemma hexdigit_ascii : forall b, is_hexdigit b = true -> is_ascii b = true.
Proof. intros b H. unfold is_hexdigit, Lex.is_digit, is_ascii in *. lia. Qed.

(* A match on a byte literal elaborates to nested matches on the bits of the byte.  It is decided by
   going down the bits; a branch that has left the path of every literal is closed at once, what is
   left are the literals themselves. *)
Ltac by_bits c := destruct c as [|c]; [|do 7 (try (destruct c as [c|c|]); try reflexivity)]; try reflexivity.
(* The same when the goal is what the default branch of the match gives, proved by [Hdef]: the leaves off
   the path of every literal are [Hdef], a literal that [b] was shown to differ from is contradictory, and
   the literals nothing is known about are left to the caller. *)
Ltac other_byte b Hdef :=
  destruct b as [|?p]; [exact Hdef|];
  repeat (match goal with p : positive |- _ => destruct p as [p|p|] end; try exact Hdef; try contradiction).
(* For a goal [_ = R] whose right-hand side is the default branch: [R] is made a variable first, so that
   the many default leaves compare a variable with itself. *)
Ltac by_bits_default c :=
  match goal with |- _ = ?R => let k := fresh in generalize R; intro k; other_byte c (eq_refl k) end.

Lemma starts_with_cons : forall x p y s,
  starts_with (x :: p) (y :: s) = if (x =? y)%N then starts_with p s else None.
Proof. reflexivity. Qed.
Lemma starts_with_nil : forall s, starts_with [] s = Some s.
Proof. destruct s; reflexivity. Qed.
Lemma starts_with_app : forall p s, Forall (fun b => (b < 256)%N \/ True) p -> starts_with p (p ++ s) = Some s.
Proof.
  intros p s _. induction p as [|x p IH]; [apply starts_with_nil|].
  cbn [app]. rewrite starts_with_cons, N.eqb_refl. exact IH.
Qed.

Definition stops (f : N -> bool) (rest : bytes) : Prop :=
  match rest with [] => True | b :: _ => is_ascii b && f b = false end.

Lemma next_not_stops : forall f rest, next_not f rest -> stops f rest.
Proof. intros f [|b r] H; [exact I|]. cbn in *. now rewrite H, andb_false_r. Qed.

Lemma take_while_go_app : forall f l rest,
  Forall (fun b => is_ascii b && f b = true) l -> stops f rest ->
  take_while_go f (l ++ rest) = (l, rest).
Proof.
  intros f l rest Hl Hr. induction Hl as [|b l Hb Hl IH]; cbn [app take_while_go].
  - destruct rest as [|b r]; [reflexivity|]. unfold stops in Hr. cbn [take_while_go]. rewrite Hr. reflexivity.
  - rewrite Hb, IH. reflexivity.
Qed.

Lemma take_while_app : forall f l rest,
  l <> [] -> Forall (fun b => is_ascii b && f b = true) l -> stops f rest ->
  take_while f (l ++ rest) = LOk l rest.
Proof.
  intros f l rest Hne Hl Hr. unfold take_while. rewrite take_while_go_app by assumption.
  destruct l; [contradiction|reflexivity].
Qed.

Lemma take_while_go_inv : forall f s t rest, take_while_go f s = (t, rest) ->
  s = t ++ rest /\ Forall (fun b => is_ascii b && f b = true) t /\ stops f rest.
Proof.
  intros f s. induction s as [|b s IH]; intros t rest H; cbn in H.
  - injection H as <- <-. now repeat split.
  - destruct (is_ascii b && f b) eqn:E.
    + destruct (take_while_go f s) as [t' r'] eqn:E2. injection H as <- <-.
      destruct (IH _ _ eq_refl) as (-> & Ht & Hr). repeat split; [now constructor|assumption].
    + injection H as <- <-. repeat split; [constructor|exact E].
Qed.

Lemma take_while_go_split : forall f s t rest, take_while_go f s = (t, rest) -> s = t ++ rest.
Proof. intros f s t rest H. now apply take_while_go_inv in H. Qed.

Lemma next_char_ascii : forall b s, (b < 128)%N -> next_char (b :: s) = Some ([b], s).
Proof.
  intros b s H. unfold next_char, char_len. replace (b <? 128)%N with true by lia. reflexivity.
Qed.

Lemma char_len_cases : forall b,
  ((b < 128)%N /\ char_len b = 1%nat \/ (128 <= b < 224)%N /\ char_len b = 2%nat) \/
  ((224 <= b < 240)%N /\ char_len b = 3%nat \/ (240 <= b)%N /\ char_len b = 4%nat).
Proof.
  intros b. unfold char_len. destruct (N.ltb_spec b 128); [lia|]. destruct (N.ltb_spec b 224); [lia|].
  destruct (N.ltb_spec b 240); lia.
Qed.

Lemma char_len_pos : forall b, (1 <= char_len b)%nat.
Proof. intros b. pose proof (char_len_cases b). lia. Qed.

Lemma next_char_shorter : forall s c r, next_char s = Some (c, r) -> (length r < length s)%nat /\ s = c ++ r.
Proof.
  intros s c r H. destruct s as [|b s]; [discriminate|]. unfold next_char in H. inversion H; subst. split.
  - pose proof (char_len_pos b). rewrite skipn_length. cbn [length]. lia.
  - symmetry. apply firstn_skipn.
Qed.

Lemma take_chars_split : forall n s t rest, take_chars n s = Some (t, rest) ->
  s = t ++ rest /\ (length rest + n <= length s)%nat.
Proof.
  induction n as [|n IH]; intros s t rest H; cbn in H.
  - inversion H; subst. split; [reflexivity|lia].
  - destruct (next_char s) as [[c r]|] eqn:E; [|discriminate].
    destruct (take_chars n r) as [[t' rest']|] eqn:E2; [|discriminate]. inversion H; subst.
    apply next_char_shorter in E. destruct E as [E1 E3]. destruct (IH _ _ _ E2) as [E4 E5]. split.
    + rewrite E3, E4. rewrite app_assoc. reflexivity.
    + lia.
Qed.

Lemma take_ascii : forall ds rest, Forall (fun b => (b < 128)%N) ds -> take (length ds) (ds ++ rest) = LOk ds rest.
Proof.
  intros ds rest H. unfold take. replace (take_chars (length ds) (ds ++ rest)) with (Some (ds, rest)); [reflexivity|].
  induction H as [|b ds Hb _ IH]; cbn [length app take_chars]; [reflexivity|].
  rewrite next_char_ascii, <- IH by assumption. reflexivity.
Qed.

Lemma digit_char_cases : forall u d, 0 <= d < 16 ->
  d < 10 /\ Z.of_N (digit_char u d) = 48 + d \/
  10 <= d /\ (Z.of_N (digit_char u d) = 55 + d \/ Z.of_N (digit_char u d) = 87 + d).
Proof. intros u d H. unfold digit_char. destruct (d <? 10) eqn:E, u; lia. Qed.

Lemma hexval_cases : forall c, is_hexdigit c = true ->
  (48 <= c <= 57 /\ hexval c = c - 48 \/ 97 <= c <= 102 /\ hexval c = c - 87 \/ 65 <= c <= 70 /\ hexval c = c - 55)%N.
Proof.
  intros c H. unfold is_hexdigit, hexval, Lex.is_digit in *.
  destruct ((48 <=? c)%N && (c <=? 57)%N) eqn:E1; [lia|].
  destruct ((97 <=? c)%N && (c <=? 102)%N) eqn:E2; lia.
Qed.

Lemma digit_char_hex : forall u d, 0 <= d < 16 -> is_hexdigit (digit_char u d) = true.
Proof. intros u d H. pose proof (digit_char_cases u d H). unfold is_hexdigit, Lex.is_digit. lia. Qed.
Lemma digit_char_val : forall u d, 0 <= d < 16 -> Z.of_N (hexval (digit_char u d)) = d.
Proof.
  intros u d H. pose proof (digit_char_cases u d H). pose proof (hexval_cases _ (digit_char_hex u d H)). lia.
Qed.
Lemma digit_char_lt128 : forall u d, 0 <= d < 16 -> (digit_char u d < 128)%N.
Proof. intros u d H. pose proof (digit_char_cases u d H). lia. Qed.
Lemma digit_char_dec : forall u d, 0 <= d < 10 -> Lex.is_digit (digit_char u d) = true /\ digit_char u d = Z.to_N (48 + d).
Proof. intros u d H. pose proof (digit_char_cases u d ltac:(lia)). unfold Lex.is_digit. lia. Qed.
Lemma digit_char_zero : forall u d, 0 <= d < 16 -> (digit_char u d = 48%N <-> d = 0).
Proof. intros u d H. pose proof (digit_char_cases u d H). lia. Qed.
Lemma digit_char_neq : forall u d k, 0 <= d < 16 -> is_hexdigit k = false -> digit_char u d <> k.
Proof. intros u d k H Hk E. rewrite <- E, digit_char_hex in Hk by assumption. discriminate. Qed.

Lemma digits_val_step : forall radix u d t a, 0 <= d < radix -> radix <= 16 ->
  digits_val radix (digit_char u d :: t) a = digits_val radix t (a * radix + d).
Proof.
  intros radix u d t a Hd Hr. cbn [digits_val]. rewrite digit_char_val by lia.
  replace (d <? radix) with true by lia. reflexivity.
Qed.

Lemma digits_val_bound radix : 0 < radix -> forall s acc v, 0 <= acc ->
  digits_val radix s acc = Some v -> acc * radix ^ Z.of_nat (length s) <= v < (acc + 1) * radix ^ Z.of_nat (length s).
Proof.
  intros Hr. induction s as [|b r IH]; intros acc v Ha H; cbn [digits_val length] in H |- *.
  - injection H as <-. cbn. lia.
  - destruct (Z.ltb_spec (Z.of_N (hexval b)) radix) as [Hd|]; [|discriminate H].
    apply IH in H; [|nia]. rewrite Nat2Z.inj_succ, Z.pow_succ_r by lia.
    assert (0 < radix ^ Z.of_nat (length r)) by (apply Z.pow_pos_nonneg; lia). nia.
Qed.

Definition is_digit_of (radix : Z) (u : bool) (c : N) : Prop := exists d, 0 <= d < radix /\ c = digit_char u d.

Lemma digits_of_spec : forall radix u, 2 <= radix <= 16 ->
  forall fuel v acc, 0 <= v < radix ^ Z.of_nat fuel -> (0 < fuel)%nat ->
  exists ds, digits_of fuel radix v u acc = ds ++ acc /\
    ds <> [] /\ Forall (is_digit_of radix u) ds /\
    (forall t a, digits_val radix (ds ++ t) a = digits_val radix t (a * radix ^ Z.of_nat (length ds) + v)) /\
    (0 < v -> exists d t, ds = digit_char u d :: t /\ 0 < d < radix) /\
    (v = 0 -> ds = [48%N]) /\
    (forall n, v < radix ^ Z.of_nat n -> (length ds <= Nat.max 1 n)%nat).
Proof.
  intros radix u Hr fuel. induction fuel as [|f IH]; intros v acc Hv Hf; [lia|].
  cbn [digits_of].
  pose proof (Z.mod_pos_bound v radix ltac:(lia)) as Hmod.
  pose proof (Z.div_mod v radix ltac:(lia)) as Hvq.
  assert (Hlast : is_digit_of radix u (digit_char u (v mod radix))) by (eexists; split; [eassumption|reflexivity]).
  destruct (Z.eqb_spec (v / radix) 0) as [Eq|Eq].
  - exists [digit_char u (v mod radix)]. rewrite Eq in Hvq. replace (v mod radix) with v in * by lia.
    repeat split; [discriminate|now constructor| | | |cbn [length]; lia].
    + intros t a. cbn [app length]. rewrite digits_val_step, Z.pow_1_r by lia. reflexivity.
    + intros Hpos. exists v, []. split; [reflexivity|lia].
    + intros ->. reflexivity.
  - assert (Hge : radix <= v) by (destruct (Z.lt_ge_cases v radix); [rewrite Z.div_small in Eq|]; lia).
    assert (Hf0 : (0 < f)%nat) by (destruct f; [rewrite Z.pow_1_r in Hv|]; lia).
    rewrite Nat2Z.inj_succ, Z.pow_succ_r in Hv by lia.
    destruct (IH (v / radix) (digit_char u (v mod radix) :: acc) ltac:(nia) Hf0)
      as (ds & E & Hne & Hall & Hval & Hhd & _ & Hlen).
    exists (ds ++ [digit_char u (v mod radix)]). rewrite <- app_assoc.
    repeat split; [exact E|now destruct ds|apply Forall_app; now split; [|constructor]| | |lia|].
    + intros t a. rewrite <- app_assoc, Hval, app_length, Nat.add_1_r, Nat2Z.inj_succ, Z.pow_succ_r by lia.
      cbn [app]. rewrite digits_val_step by lia. f_equal. lia.
    + intros _. destruct (Hhd ltac:(nia)) as (d & t & -> & Hd). now exists d, (t ++ [digit_char u (v mod radix)]).
    + intros [|n] Hn; [change (radix ^ Z.of_nat 0) with 1 in Hn; lia|].
      rewrite Nat2Z.inj_succ, Z.pow_succ_r in Hn by lia. specialize (Hlen n ltac:(nia)).
      rewrite app_length. cbn [length]. destruct n; [|lia]. change (radix ^ Z.of_nat 0) with 1 in Hn. nia.
Qed.

Lemma print_radix_fuel : forall radix v, 2 <= radix -> 0 <= v -> 0 <= v < radix ^ Z.of_nat (S (Z.to_nat (Z.log2 v))).
Proof.
  intros radix v Hr Hv. split; [assumption|]. pose proof (Z.log2_nonneg v).
  rewrite Nat2Z.inj_succ, Z2Nat.id by assumption.
  apply Z.lt_le_trans with (2 ^ Z.succ (Z.log2 v)); [|apply Z.pow_le_mono_l; lia].
  destruct (Z.eq_dec v 0) as [->|]; [reflexivity|]. apply Z.log2_spec. lia.
Qed.

Lemma print_radix_spec : forall radix u v, 2 <= radix <= 16 -> 0 <= v ->
  let ds := print_radix radix v u in
  ds <> [] /\ Forall (is_digit_of radix u) ds /\
  (forall t a, digits_val radix (ds ++ t) a = digits_val radix t (a * radix ^ Z.of_nat (length ds) + v)) /\
  (0 < v -> exists d t, ds = digit_char u d :: t /\ 0 < d < radix) /\
  (v = 0 -> ds = [48%N]).
Proof.
  intros radix u v Hr Hv. unfold print_radix.
  destruct (digits_of_spec radix u Hr _ v [] (print_radix_fuel radix v ltac:(lia) Hv) ltac:(lia))
    as (ds & E & Hne & Hall & Hval & Hhd & H0 & _).
  rewrite app_nil_r in E. cbn zeta. rewrite E. repeat split; assumption.
Qed.

Lemma print_radix_forall : forall (P : N -> Prop) radix u v, 2 <= radix <= 16 -> 0 <= v ->
  (forall d, 0 <= d < radix -> P (digit_char u d)) -> Forall P (print_radix radix v u).
Proof.
  intros P radix u v Hr Hv HP. destruct (print_radix_spec radix u v Hr Hv) as (_ & Hall & _).
  eapply Forall_impl; [|exact Hall]. intros c (d & Hd & ->). now apply HP.
Qed.

Lemma print_radix_length : forall radix u n v, 2 <= radix <= 16 -> 0 <= v < radix ^ Z.of_nat n -> (0 < n)%nat ->
  (length (print_radix radix v u) <= n)%nat.
Proof.
  intros radix u n v Hr Hv Hn. unfold print_radix.
  destruct (digits_of_spec radix u Hr _ v [] (print_radix_fuel radix v ltac:(lia) ltac:(lia)) ltac:(lia))
    as (ds & E & _ & _ & _ & _ & _ & Hlen).
  rewrite E, app_nil_r. specialize (Hlen n ltac:(lia)). lia.
Qed.

Section Radix.
Variables (radix : Z) (u : bool).
Hypothesis Hr : 2 <= radix.

Lemma digits_of_fuel : forall f f' v acc acc',
  0 <= v < radix ^ Z.of_nat (S f) -> v < radix ^ Z.of_nat (S f') ->
  exists ds, digits_of (S f) radix v u acc = ds ++ acc /\ digits_of (S f') radix v u acc' = ds ++ acc'.
Proof.
  assert (B : forall n v, v < radix ^ Z.of_nat (S n) -> v / radix < radix ^ Z.of_nat n).
  { intros n v Hv. apply Z.div_lt_upper_bound; [lia|]. now rewrite Nat2Z.inj_succ, Z.pow_succ_r in Hv by lia. }
  induction f as [|f IH]; intros f' v acc acc' [Hv0 Hv] Hv'; cbn [digits_of];
    (destruct (Z.eqb_spec (v / radix) 0) as [E|E]; [now exists [digit_char u (v mod radix)]|]).
  - apply B in Hv. cbn in Hv. pose proof (Z.div_pos v radix). lia.
  - destruct f' as [|f']; [apply B in Hv'; cbn in Hv'; pose proof (Z.div_pos v radix); lia|].
    destruct (IH f' (v / radix) (digit_char u (v mod radix) :: acc) (digit_char u (v mod radix) :: acc'))
      as (ds & E1 & E2); [split; [apply Z.div_pos; lia|apply B, Hv]|apply B, Hv'|].
    exists (ds ++ [digit_char u (v mod radix)]). rewrite <- !app_assoc. now split.
Qed.

Lemma print_radix_lt v : 0 <= v < radix -> print_radix radix v u = [digit_char u v].
Proof. intros H. unfold print_radix. cbn [digits_of]. now rewrite Z.div_small, Z.mod_small. Qed.

Lemma print_radix_snoc q d : 0 < q -> 0 <= d < radix ->
  print_radix radix (q * radix + d) u = print_radix radix q u ++ [digit_char u d].
Proof.
  intros Hq Hd. set (v := q * radix + d).
  assert (Eq : v / radix = q) by (unfold v; rewrite Z.div_add_l, Z.div_small; lia).
  assert (Em : v mod radix = d) by (unfold v; rewrite Z.add_comm, Z.mod_add, Z.mod_small; lia).
  assert (Hrv : radix <= v) by (pose proof (Z.mul_le_mono_nonneg_r 1 q radix); lia).
  pose proof (print_radix_fuel radix v Hr ltac:(lia)) as [_ Hv]. unfold print_radix at 1.
  destruct (Z.to_nat (Z.log2 v)) as [|f] eqn:Ef.
  { exfalso. pose proof (Z.log2_le_mono 2 v ltac:(lia)) as L. change (Z.log2 2) with 1 in L. lia. }
  change (digits_of (S (S f)) radix v u []) with
    (if v / radix =? 0 then [digit_char u (v mod radix)]
     else digits_of (S f) radix (v / radix) u [digit_char u (v mod radix)]).
  rewrite Eq, Em. destruct (Z.eqb_spec q 0) as [E|_]; [lia|].
  destruct (digits_of_fuel f (Z.to_nat (Z.log2 q)) q [digit_char u d] []) as (ds & -> & E);
    [split; [lia|]|now apply print_radix_fuel, Z.lt_le_incl|].
  - rewrite <- Eq. apply Z.div_lt_upper_bound; [lia|]. now rewrite Nat2Z.inj_succ, Z.pow_succ_r in Hv by lia.
  - unfold print_radix. now rewrite E, app_nil_r.
Qed.
End Radix.

Lemma digits_val_zeros : forall radix n t a, 0 < radix ->
  digits_val radix (repeat 48%N n ++ t) a = digits_val radix t (a * radix ^ Z.of_nat n).
Proof.
  intros radix n t. induction n as [|n IH]; intros a Hr.
  - cbn [repeat app]. f_equal. change (Z.of_nat 0) with 0. rewrite Z.pow_0_r. lia.
  - cbn [repeat app digits_val]. change (Z.of_N (hexval 48)) with 0.
    replace (0 <? radix) with true by lia. rewrite IH by assumption. f_equal.
    replace (Z.of_nat (S n)) with (Z.of_nat n + 1) by lia. rewrite Z.pow_add_r, Z.pow_1_r by lia. lia.
Qed.

Lemma digit_char_text : forall u d, 0 <= d < 16 -> is_ascii (digit_char u d) && is_hexdigit (digit_char u d) = true.
Proof. intros u d H. now rewrite (hexdigit_ascii _ (digit_char_hex u d H)), digit_char_hex. Qed.

Lemma is_digit_of_hex : forall radix u c, radix <= 16 -> is_digit_of radix u c ->
  is_ascii c && is_hexdigit c = true.
Proof. intros radix u c Hr (d & Hd & ->). apply digit_char_text. lia. Qed.
