(* C16 — a scheme is a consistent registry of uniquely named fields, functions
   and lists.  This file contains only the property theorems, each a few steps
   from what Proofs/RegistryProofs.v shows of refining or consistent builders,
   of histories, of the identifier lexer and of worlds of schemes; the
   linear-cost runners that the extracted program executes are those of
   Proofs/RegistryFastProofs.v. *)
From Coq Require Import List NArith Bool Arith.
From WF Require Import Base.Bytes Lang.Types Sem.Registry Spec.C16 Proofs.RegistryProofs Sem.RegistryFast Proofs.RegistryFastProofs.
Import ListNotations.
Open Scope N_scope.

(* For EVERY sequence of add_field / add_optional_field / add_function /
   add_list calls: the builder's responses are those of the abstract registry,
   and every public query of the built scheme (none of which can panic: the
   outer [Some]) answers what the abstract registry answers. *)
Theorem C16_registry_refines_map : forall ops : list reg_op,
  fst (run_ops ops) = fst (spec_run_ops ops) /\
  ((forall n, obs_get_field (snd (run_ops ops)) n = Some (spec_get_field (snd (spec_run_ops ops)) n)) /\
   (forall n, obs_get_function (snd (run_ops ops)) n = Some (spec_get_function (snd (spec_run_ops ops)) n)) /\
   (forall t, obs_get_list (snd (run_ops ops)) t = Some (spec_get_list (snd (spec_run_ops ops)) t)) /\
   obs_fields (snd (run_ops ops)) = Some (spec_fields (snd (spec_run_ops ops))) /\
   obs_functions (snd (run_ops ops)) = Some (spec_functions (snd (spec_run_ops ops))) /\
   obs_lists (snd (run_ops ops)) = Some (spec_lists (snd (spec_run_ops ops))) /\
   obs_counts (snd (run_ops ops)) = spec_counts (snd (spec_run_ops ops))).
Proof.
  intros ops. destruct (run_refines ops) as [Hres R]. split; [exact Hres|].
  repeat split; intros;
    [apply q_get_field|apply q_get_function|apply q_get_list|apply q_fields|apply q_functions|apply q_lists
    |apply q_counts]; exact R.
Qed.

(* A failed registration changes nothing, in any state. *)
Theorem C16_failure_changes_nothing : forall (b : builder) (o : reg_op) (e : redef),
  fst (apply_op b o) = AddErr e -> snd (apply_op b o) = b.
Proof.
  intros b o e. pose proof (apply_op_cases b o) as H. destruct (holder_kind b (op_key o)); [now rewrite H|].
  destruct H as [-> _]. discriminate.
Qed.

(* What each call answers, without reference to any state: it succeeds exactly
   when no earlier call of the history claimed the same name (fields and
   functions share one name space) or the same list type, and otherwise reports
   the kind of the first earlier claim. *)
Theorem C16_response_by_history : forall (ops : list reg_op) (o : reg_op),
  fst (run_ops (ops ++ [o])) = fst (run_ops ops) ++ [expected_response ops o].
Proof.
  intros ops o. rewrite !(proj1 (run_refines _)), spec_run_ops_snoc. unfold spec_step, expected_response. cbn [fst].
  rewrite spec_apply_by_kind, spec_kind_history. now destruct (find _ ops).
Qed.

(* The registry after a history is the list of first claims, in order ... *)
Theorem C16_registry_is_first_claims : forall ops : list reg_op,
  snd (spec_run_ops ops) = map reg_of_op (first_claims [] ops).
Proof. intros ops. apply (first_claims_fold ops [] ([], [])). now intros []. Qed.

(* ... so fields (functions, lists) are numbered 0, 1, 2, ... in insertion
   order among the successful registrations of their kind. *)
Theorem C16_field_indexes_insertion_order : forall ops : list reg_op,
  obs_fields (snd (run_ops ops)) = Some (numbered (reg_fields (map reg_of_op (first_claims [] ops)))) /\
  obs_functions (snd (run_ops ops)) = Some (numbered (reg_functions (map reg_of_op (first_claims [] ops)))) /\
  obs_lists (snd (run_ops ops)) = Some (numbered (reg_lists (map reg_of_op (first_claims [] ops)))).
Proof.
  intros ops. rewrite <- C16_registry_is_first_claims. destruct (run_refines ops) as [_ R].
  repeat split; [now apply q_fields|now apply q_functions|now apply q_lists].
Qed.

(* Invariant: the items map and the vectors describe each other. *)
Theorem C16_items_consistent : forall ops : list reg_op,
  let b := snd (run_ops ops) in
  (forall n i, scheme_get b n = Some (IField i) -> exists f, field_at b i = Some f /\ fd_name f = n) /\
  (forall n i, scheme_get b n = Some (IFunction i) -> function_at b i = Some n) /\
  (forall i f, field_at b i = Some f -> scheme_get b (fd_name f) = Some (IField i)) /\
  (forall i n, function_at b i = Some n -> scheme_get b n = Some (IFunction i)) /\
  (forall t i, get_list b t = Some i -> exists k, list_at b i = Some (t, k)) /\
  (forall i t k, list_at b i = Some (t, k) -> get_list b t = Some i).
Proof. intros ops b. destruct (run_ops_consistent ops). repeat split; assumption. Qed.

(* No two slots carry the same name (across fields and functions); at most one list per type. *)
Theorem C16_unique_names_one_list_per_type : forall ops : list reg_op,
  let b := snd (run_ops ops) in
  (forall i j f g, field_at b i = Some f -> field_at b j = Some g -> fd_name f = fd_name g -> i = j) /\
  (forall i j n, function_at b i = Some n -> function_at b j = Some n -> i = j) /\
  (forall i j f, field_at b i = Some f -> function_at b j = Some (fd_name f) -> False) /\
  (forall i j t k k', list_at b i = Some (t, k) -> list_at b j = Some (t, k') -> i = j).
Proof. intros ops. apply consistent_unique_names, run_ops_consistent. Qed.

(* The lexed identifier is the maximal dotted run ... *)
Theorem C16_ident_lex_maximal : forall input : bytes,
  lex_ident input =
  match spec_lex_ident input with
  | Some (name, rest) => LexOk name rest
  | None => LexErr ExpectedName
  end.
Proof. exact lex_ident_spec. Qed.

Theorem C16_ident_lex_shape : forall input name rest,
  lex_ident input = LexOk name rest ->
  input = name ++ rest /\
  forallb is_name_byte name = true /\
  segments_ok false name = true /\
  match rest with [] => True | c :: _ => is_ident_char c = false /\ c <> 46 end.
Proof.
  intros input name rest. rewrite lex_ident_spec. unfold spec_lex_ident.
  destruct (span_while_spec is_name_byte input) as (Hsplit & Hall & Hstop). rewrite <- name_run_span in *.
  destruct (name_run input) as [run r]. cbn [fst snd] in *.
  destruct (segments_ok false run) eqn:Hs; [|discriminate].
  intros [= <- <-]. repeat split; auto.
  destruct r as [|c r']; [exact I|]. apply orb_false_iff in Hstop as [Hc Hd].
  split; [exact Hc|]. now intros ->.
Qed.

(* ... and lookup is exact: what is found under a name carries that very
   name, and a name no call of the history mentioned is not found, whatever
   other names (prefixes, extensions, other case) were registered. *)
Theorem C16_lookup_exact : forall (ops : list reg_op) (n : bytes) (i : nat),
  get_field (snd (run_ops ops)) n = Some i ->
  exists f, field_at (snd (run_ops ops)) i = Some f /\ fd_name f = n.
Proof. intros ops n i. apply consistent_get_field, run_ops_consistent. Qed.

Theorem C16_lookup_exact_function : forall (ops : list reg_op) (n : bytes) (i : nat),
  get_function (snd (run_ops ops)) n = Some i -> function_at (snd (run_ops ops)) i = Some n.
Proof. intros ops n i. apply consistent_get_function, run_ops_consistent. Qed.

Theorem C16_never_added_not_found : forall (ops : list reg_op) (n : bytes),
  ~ In (KName n) (map op_key ops) -> scheme_get (snd (run_ops ops)) n = None.
Proof.
  intros ops n Hn. rewrite (q_scheme_get _ _ (proj2 (run_refines ops))).
  pose proof (spec_kind_history ops (KName n)) as H. destruct (find _ ops) as [p|] eqn:E.
  - apply find_some in E as [Hin He]. destruct (key_eqb_spec (KName n) (op_key p)) as [Hp|]; [|discriminate].
    destruct Hn. rewrite Hp. now apply in_map.
  - cbn [spec_kind option_map] in H. now destruct (holder _ n) as [[i t o|i]|].
Qed.

(* Identifiers in value expressions and filters resolve through the abstract
   registry only: a field bare, a function called, never the other way round. *)
Theorem C16_ident_in_filters : forall (ops : list reg_op) (text : bytes),
  (spec_probe_value (snd (spec_run_ops ops)) text <> PErr Unmodelled ->
   probe_value (snd (run_ops ops)) text = spec_probe_value (snd (spec_run_ops ops)) text) /\
  (spec_probe_filter (snd (spec_run_ops ops)) text <> PErr Unmodelled ->
   probe_filter (snd (run_ops ops)) text = spec_probe_filter (snd (spec_run_ops ops)) text).
Proof.
  intros ops text. destruct (run_refines ops) as [_ R].
  split; [now apply probe_value_spec|now apply probe_filter_spec].
Qed.

(* Two schemes are equal exactly when they come from the same build. *)
Theorem C16_scheme_eq_iff_clone : forall (ops : list scheme_op) i j si sj oi oj,
  nth_error (run_scheme_ops ops) i = Some si -> nth_error (run_scheme_ops ops) j = Some sj ->
  nth_error (scheme_origins ops) i = Some oi -> nth_error (scheme_origins ops) j = Some oj ->
  scheme_eqb si sj = Nat.eqb oi oj.
Proof.
  intros ops i j si sj oi oj Hi Hj Hoi Hoj. unfold scheme_eqb. apply eq_true_iff_eq.
  rewrite !Nat.eqb_eq. exact (scheme_ids_origins ops i j si sj oi oj Hi Hj Hoi Hoj).
Qed.

Theorem C16_scheme_worlds_same_length : forall ops : list scheme_op,
  length (run_scheme_ops ops) = length (scheme_origins ops).
Proof. intros ops. exact (w_len _ _ (world_run ops)). Qed.

Definition ex_x : bytes := [120].
Definition ex_xy : bytes := [120; 46; 121].
Definition ex_X : bytes := [88].
Definition ex_ops : list reg_op :=
  [OpField ex_xy TInt; OpFn ex_x; OpOField ex_x TBool; OpFn ex_xy; OpList TInt LkAlways; OpList TInt LkNever;
   OpField ex_X TBool].

Example C16_history_nontrivial :
  fst (run_ops ex_ops) = [AddOk; AddOk; AddErr RedefFunction; AddErr RedefField; AddOk; AddErr RedefList; AddOk]
  /\ obs_fields (snd (run_ops ex_ops))
     = Some [(0%nat, {| fd_name := ex_xy; fd_ty := TInt; fd_optional := false |});
             (1%nat, {| fd_name := ex_X; fd_ty := TBool; fd_optional := false |})].
Proof. vm_compute. split; reflexivity. Qed.

Example C16_failure_premise_satisfiable :
  fst (apply_op (snd (run_ops [OpFn ex_x])) (OpField ex_x TInt)) = AddErr RedefFunction.
Proof. vm_compute. reflexivity. Qed.

Example C16_lookup_premise_satisfiable : get_field (snd (run_ops ex_ops)) ex_X = Some 1%nat.
Proof. vm_compute. reflexivity. Qed.

Example C16_lookup_function_premise_satisfiable : get_function (snd (run_ops ex_ops)) ex_x = Some 0%nat.
Proof. vm_compute. reflexivity. Qed.

(* `x.y` and `X` are registered, the prefix `x` of `x.y` is a function: `x.y.z` is never found *)
Example C16_never_added_premise_satisfiable :
  ~ In (KName [120; 46; 121; 46; 122]) (map op_key ex_ops).
Proof. cbn. intros H. repeat (destruct H as [H|H]; [discriminate|]). exact H. Qed.

Example C16_lex_shape_premise_satisfiable :
  lex_ident [120; 46; 121; 40; 41] = LexOk ex_xy [40; 41] /\ lex_ident [120; 46] = LexErr ExpectedName.
Proof. vm_compute. split; reflexivity. Qed.

Example C16_probe_premises_satisfiable :
  spec_probe_value (snd (spec_run_ops ex_ops)) [120; 40; 41] = PCall 0 /\
  spec_probe_filter (snd (spec_run_ops ex_ops)) ex_X = PField 1 /\
  spec_probe_filter (snd (spec_run_ops ex_ops)) ex_xy = PErr ExpectedName /\
  spec_probe_value (snd (spec_run_ops ex_ops)) ex_X <> PErr Unmodelled.
Proof. vm_compute. repeat split; try reflexivity. discriminate. Qed.

Example C16_scheme_world_nontrivial :
  let w := [SBuild ex_ops; SClone 0; SBuild ex_ops] in
  scheme_origins w = [0; 0; 2]%nat /\
  map (fun s => scheme_eqb s (nth 0 (run_scheme_ops w) {| s_id := 9; s_inner := empty_builder |}))
      (run_scheme_ops w) = [true; true; false].
Proof. vm_compute. split; reflexivity. Qed.

(* The runner executes linear-cost arrangements of the model and of the
   specification (vectors newest first beside their lengths, one reversal at
   the end) so that histories of 10^5 registrations stay affordable; they
   compute exactly run_ops and spec_run_ops. *)
Theorem C16_fast_model_runner : forall ops : list reg_op, run_ops_fast ops = run_ops ops.
Proof. exact run_ops_fast_eq. Qed.

Theorem C16_fast_spec_runner : forall ops : list reg_op, spec_run_ops_fast ops = spec_run_ops ops.
Proof. exact spec_run_ops_fast_eq. Qed.

Check C16_registry_refines_map : forall ops : list reg_op,
  fst (run_ops ops) = fst (spec_run_ops ops) /\
  ((forall n, obs_get_field (snd (run_ops ops)) n = Some (spec_get_field (snd (spec_run_ops ops)) n)) /\
   (forall n, obs_get_function (snd (run_ops ops)) n = Some (spec_get_function (snd (spec_run_ops ops)) n)) /\
   (forall t, obs_get_list (snd (run_ops ops)) t = Some (spec_get_list (snd (spec_run_ops ops)) t)) /\
   obs_fields (snd (run_ops ops)) = Some (spec_fields (snd (spec_run_ops ops))) /\
   obs_functions (snd (run_ops ops)) = Some (spec_functions (snd (spec_run_ops ops))) /\
   obs_lists (snd (run_ops ops)) = Some (spec_lists (snd (spec_run_ops ops))) /\
   obs_counts (snd (run_ops ops)) = spec_counts (snd (spec_run_ops ops))).
Check C16_failure_changes_nothing : forall (b : builder) (o : reg_op) (e : redef),
  fst (apply_op b o) = AddErr e -> snd (apply_op b o) = b.
Check C16_response_by_history : forall (ops : list reg_op) (o : reg_op),
  fst (run_ops (ops ++ [o])) = fst (run_ops ops) ++ [expected_response ops o].
Check C16_ident_lex_maximal : forall input : bytes,
  lex_ident input =
  match spec_lex_ident input with
  | Some (name, rest) => LexOk name rest
  | None => LexErr ExpectedName
  end.
Check C16_never_added_not_found : forall (ops : list reg_op) (n : bytes),
  ~ In (KName n) (map op_key ops) -> scheme_get (snd (run_ops ops)) n = None.
Check C16_scheme_eq_iff_clone : forall (ops : list scheme_op) i j si sj oi oj,
  nth_error (run_scheme_ops ops) i = Some si -> nth_error (run_scheme_ops ops) j = Some sj ->
  nth_error (scheme_origins ops) i = Some oi -> nth_error (scheme_origins ops) j = Some oj ->
  scheme_eqb si sj = Nat.eqb oi oj.

Print Assumptions C16_registry_refines_map.
Print Assumptions C16_failure_changes_nothing.
Print Assumptions C16_response_by_history.
Print Assumptions C16_registry_is_first_claims.
Print Assumptions C16_field_indexes_insertion_order.
Print Assumptions C16_items_consistent.
Print Assumptions C16_unique_names_one_list_per_type.
Print Assumptions C16_ident_lex_maximal.
Print Assumptions C16_ident_lex_shape.
Print Assumptions C16_lookup_exact.
Print Assumptions C16_lookup_exact_function.
Print Assumptions C16_never_added_not_found.
Print Assumptions C16_ident_in_filters.
Print Assumptions C16_scheme_eq_iff_clone.
Print Assumptions C16_scheme_worlds_same_length.
Print Assumptions C16_fast_model_runner.
Print Assumptions C16_fast_spec_runner.
