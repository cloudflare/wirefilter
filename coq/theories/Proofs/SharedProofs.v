(* C18 - proofs: every schedule of the machine of Sem/Shared.v gives every
   thread the sequential results (induction over the schedule with an
   invariant), the engines of Sem/Shared.v satisfy [engine_ok] (a leaf matcher
   answers the same whatever the latch, the anchor and the valid cache it runs
   with), and the two excluded designs are refuted by computation. *)
From Coq Require Import List NArith Arith Lia.
From WF Require Import Base.Bytes Sem.Matchers Sem.Compile Spec.Denote Spec.Typing
     Proofs.SearcherProofs Proofs.CallProofs Proofs.FullProofs Sem.Shared Spec.C18 Proofs.ByteKeys.
Import ListNotations.
Local Open Scope nat_scope.

Lemma upd_same {A} (f : nat -> A) i a : upd f i a i = a.
Proof. unfold upd. rewrite Nat.eqb_refl. reflexivity. Qed.

Lemma upd_other {A} (f : nat -> A) i a j : j <> i -> upd f i a j = f j.
Proof. intros H. unfold upd. destruct (Nat.eqb_spec j i); [contradiction | reflexivity]. Qed.

Section Invariant.
  Context {F C K Sc R V : Type}.
  Variable E : engine F C K Sc R V.
  Variable seq_result : F -> C -> R.
  Variable v0 : nat -> V.
  Variable Inv : nat -> Sc -> Prop.
  Hypothesis OK : engine_ok E seq_result v0 Inv.
  Variable progs : nat -> list op.

  Definition isset (g : @global Sc V) (x : nat) : Prop := cells g x <> None.

  Definition needs_of (o : op) : list nat :=
    match getf E (op_fid o) with Some f => e_needs E f | None => [] end.

  (* the cells [o] needs are set, except perhaps those of [rest] *)
  Definition forced (g : @global Sc V) (o : op) (rest : list nat) : Prop :=
    forall x, In x (needs_of o) -> In x rest \/ isset g x.

  Definition phase_ok (g : @global Sc V) (o : op) (p : @phase Sc R V) : Prop :=
    match p with
    | PIdle => True
    | PCells rest => forced g o rest /\ incl rest (needs_of o)
    | PPublish c v rest =>
        forced g o (c :: rest) /\ incl (c :: rest) (needs_of o) /\ v = v0 c
    | PPut r s =>
        forced g o [] /\ r = seq_obs E seq_result o /\
        (op_recompile o = false -> Inv (e_pool E (op_fid o)) s)
    end.

  Definition thread_ok (g : @global Sc V) (t : nat) (th : @thread K Sc R V) : Prop :=
    exists done,
      progs t = done ++ todo th /\
      log th = seq_log E seq_result done /\
      (forall o, In o done -> forced g o []) /\
      match todo th with
      | [] => True
      | o :: _ => phase_ok g o (ph th)
      end.

  Definition global_ok (g : @global Sc V) : Prop :=
    (forall c v, cells g c = Some v -> v = v0 c /\ needed E progs c) /\
    (forall p s, In s (pools g p) -> Inv p s).

  Definition inv (m : @machine K Sc R V) : Prop :=
    global_ok (glob m) /\ forall t, thread_ok (glob m) t (threads m t).

  Definition mono (g g' : @global Sc V) : Prop := forall x, isset g x -> isset g' x.

  Lemma mono_refl g : mono g g.
  Proof. intros x Hx. exact Hx. Qed.

  Lemma forced_mono g g' o rest : mono g g' -> forced g o rest -> forced g' o rest.
  Proof.
    intros Hm Hf x Hx. destruct (Hf x Hx) as [Hin | Hs]; [left; exact Hin | right; apply Hm; exact Hs].
  Qed.

  Lemma phase_ok_mono g g' o p : mono g g' -> phase_ok g o p -> phase_ok g' o p.
  Proof.
    intros Hm. destruct p as [|rest|c v rest|r s]; cbn [phase_ok]; [trivial|..];
      intros [Hf Hr]; (split; [eapply forced_mono; eassumption | exact Hr]).
  Qed.

  Lemma thread_ok_mono g g' t th : mono g g' -> thread_ok g t th -> thread_ok g' t th.
  Proof.
    intros Hm (done & Hp & Hl & Hd & Hph). exists done. split; [exact Hp|]. split; [exact Hl|]. split.
    - intros o Ho. eapply forced_mono; [exact Hm | apply Hd; exact Ho].
    - destruct (todo th) as [|o later]; [exact I | eapply phase_ok_mono; eassumption].
  Qed.

  Lemma needs_of_some o c : In c (needs_of o) -> exists f, getf E (op_fid o) = Some f /\ In c (e_needs E f).
  Proof.
    unfold needs_of. destruct (getf E (op_fid o)) as [f|]; [|intros []].
    intros H. exists f. split; [reflexivity | exact H].
  Qed.

  Lemma forced_view g o f : global_ok g -> forced g o [] -> getf E (op_fid o) = Some f ->
    forall x, In x (e_needs E f) -> cells g x = Some (v0 x).
  Proof.
    intros [Hc _] Hf Hg x Hx.
    destruct (Hf x) as [[] | Hs].
    - unfold needs_of. rewrite Hg. exact Hx.
    - unfold isset in Hs. destruct (cells g x) as [v|] eqn:Ev; [|contradiction].
      destruct (Hc x v Ev) as [-> _]. reflexivity.
  Qed.

  (* What a step may write: nothing, or a pool, with valid scratch values ... *)
  Lemma mono_cells g g' : cells g' = cells g -> mono g g'.
  Proof. intros H x. unfold isset. rewrite H. exact id. Qed.

  Lemma set_pool_ok g p l : global_ok g -> (forall s, In s l -> Inv p s) -> global_ok (set_pool g p l).
  Proof.
    intros [Hc Hp] Hl. split; [exact Hc|]. intros q s. cbn [set_pool pools]. unfold upd.
    destruct (Nat.eqb_spec q p) as [-> | _]; [apply Hl | apply Hp].
  Qed.

  Lemma take_ok g p : global_ok g ->
    Inv p (fst (take E g p)) /\ global_ok (snd (take E g p)) /\ cells (snd (take E g p)) = cells g.
  Proof.
    intros Hg. unfold take. destruct (pools g p) as [|s r] eqn:Ep; cbn [fst snd].
    - split; [apply (ok_fresh _ _ _ _ OK) | auto].
    - split; [apply Hg; rewrite Ep; left; reflexivity|]. split; [|reflexivity].
      apply set_pool_ok; [exact Hg|]. intros s' Hs'. apply Hg. rewrite Ep. right. exact Hs'.
  Qed.

  Lemma put_ok g p s : global_ok g -> Inv p s -> global_ok (put g p s).
  Proof.
    intros Hg Hs. apply set_pool_ok; [exact Hg|].
    intros s' [<- | Hs']; [exact Hs | apply Hg; exact Hs'].
  Qed.

  (* ... or an empty cell that some operation needs, with the value every thread computes. *)
  Lemma set_cell_ok g c : global_ok g -> needed E progs c -> global_ok (set_cell g c (v0 c)).
  Proof.
    intros [Hc Hp] Hn. split; [|exact Hp]. intros c' w. cbn [set_cell cells]. unfold upd.
    destruct (Nat.eqb_spec c' c) as [-> | _]; [intros [= <-]; auto | apply Hc].
  Qed.

  Lemma set_cell_mono g c v : mono g (set_cell g c v).
  Proof.
    intros x Hx. unfold isset in *. cbn [set_cell cells]. unfold upd.
    destruct (Nat.eqb x c); [discriminate | exact Hx].
  Qed.

  Definition step_ok (g : @global Sc V) (t : nat) (r : @global Sc V * @thread K Sc R V) : Prop :=
    global_ok (fst r) /\ mono g (fst r) /\ thread_ok (fst r) t (snd r).

  (* While an operation is in progress a step changes the phase only: the
     thread stays good if the new phase is, in the new global state. *)
  Lemma stay_ok g g' t th th' o later :
    thread_ok g t th -> todo th = o :: later -> todo th' = todo th -> log th' = log th ->
    global_ok g' -> mono g g' -> phase_ok g' o (ph th') ->
    step_ok g t (g', th').
  Proof.
    intros (done & Hp & Hl & Hd & _) Eo Et El Hg' Hm Hph. split; [exact Hg'|]. split; [exact Hm|]. cbn [fst snd].
    exists done. rewrite Et, El. split; [exact Hp|]. split; [exact Hl|]. split; [|rewrite Eo; exact Hph].
    intros o' Ho'. eapply forced_mono; eauto.
  Qed.

  Lemma next_cell_ok g o c cs v :
    cells g c = Some v -> forced g o (c :: cs) -> incl (c :: cs) (needs_of o) -> phase_ok g o (PCells cs).
  Proof.
    intros Hc Hf Hi. split; intros x Hx; [|apply Hi; right; exact Hx].
    destruct (Hf x Hx) as [[-> | Hin] | Hs]; [right; unfold isset; rewrite Hc; discriminate | auto ..].
  Qed.

  Lemma skip_phase_ok g o :
    forced g o [] -> seq_obs E seq_result o = None -> phase_ok g o (PPut None (e_fresh E)).
  Proof.
    intros Hf Hn. cbn [phase_ok]. rewrite Hn. split; [exact Hf|]. split; [reflexivity|].
    intros _. apply (ok_fresh _ _ _ _ OK).
  Qed.

  (* a run on the initialised cells from a valid scratch, whatever the knob;
     [g'] is [g] once the scratch has been taken *)
  Lemma run_phase_ok g g' o f c k s :
    global_ok g -> forced g o [] -> cells g' = cells g ->
    getf E (op_fid o) = Some f -> getc E (op_cid o) = Some c -> Inv (e_pool E (op_fid o)) s ->
    phase_ok g' o (PPut (Some (fst (e_run E (cells g) k s f c))) (snd (e_run E (cells g) k s f c))).
  Proof.
    intros Hg Hf Hc Egf Egc Hs. cbn [phase_ok]. unfold seq_obs. rewrite Egf, Egc.
    destruct (ok_run _ _ _ _ OK (cells g) k s _ f c Egf (forced_view g o f Hg Hf Egf) Hs) as [-> Hinv].
    split; [eapply forced_mono; [apply mono_cells|]; eassumption | auto].
  Qed.

  Lemma step_thread_ok g t th :
    global_ok g -> thread_ok g t th -> step_ok g t (step_thread E t g th).
  Proof.
    intros Hg Hth. pose proof Hth as (done & Hp & Hl & Hd & Hph).
    unfold step_thread. destruct (todo th) as [|o later] eqn:Etodo.
    { split; [exact Hg|]. split; [apply mono_refl | exact Hth]. }
    pose proof (fun g' th' => stay_ok g g' t th th' o later Hth Etodo) as Hstay.
    destruct (ph th) as [|[|c cs]|c v cs|r s]; cbn [phase_ok] in Hph.
    - (* PIdle: start the operation *)
      apply Hstay; auto using mono_refl. split; [intros x Hx; left; exact Hx | apply incl_refl].
    - (* PCells []: take a scratch value and run *)
      destruct Hph as [Hf _].
      destruct (getf E (op_fid o)) as [f|] eqn:Egf; [destruct (getc E (op_cid o)) as [c|] eqn:Egc|].
      2, 3: apply Hstay; auto using mono_refl; apply skip_phase_ok;
        [exact Hf | unfold seq_obs; rewrite Egf, ?Egc; reflexivity].
      destruct (op_recompile o).
      + apply Hstay; auto using mono_refl. apply run_phase_ok; auto. apply (ok_fresh _ _ _ _ OK).
      + destruct (take_ok g (e_pool E (op_fid o)) Hg) as (Hs & Hg' & Hcells).
        apply Hstay; auto using mono_cells. apply run_phase_ok; auto.
    - (* PCells (c :: cs): look at cell c *)
      destruct Hph as [Hf Hi]. destruct (cells g c) as [v|] eqn:Ec; apply Hstay; auto using mono_refl.
      + exact (next_cell_ok g o c cs v Ec Hf Hi).
      + repeat split; [exact Hf | exact Hi | apply (ok_init _ _ _ _ OK)].
    - (* PPublish: store the value unless somebody else was faster *)
      destruct Hph as (Hf & Hi & ->). destruct (cells g c) as [v'|] eqn:Ec; apply Hstay; auto using mono_refl.
      + exact (next_cell_ok g o c cs v' Ec Hf Hi).
      + apply set_cell_ok; [exact Hg|].
        destruct (needs_of_some o c) as (f & Hgf & Hin); [apply Hi; left; reflexivity|].
        exists t, o, f. rewrite Hp. auto using in_or_app, in_eq.
      + apply set_cell_mono.
      + apply (next_cell_ok (set_cell g c (v0 c)) o c cs (v0 c)); [apply upd_same | | exact Hi].
        eapply forced_mono; [apply set_cell_mono | exact Hf].
    - (* PPut: give the scratch back, log the result *)
      destruct Hph as (Hf & -> & Hs). cbn [fst snd].
      assert (Hg' : global_ok (if op_recompile o then g else put g (e_pool E (op_fid o)) s) /\
                    cells (if op_recompile o then g else put g (e_pool E (op_fid o)) s) = cells g).
      { destruct (op_recompile o); [auto|]. split; [apply put_ok; auto | reflexivity]. }
      destruct Hg' as [Hg' Hcells]. pose proof (mono_cells _ _ Hcells) as Hm.
      split; [exact Hg'|]. split; [exact Hm|].
      exists (done ++ [o]). cbn [todo log ph]. rewrite <- app_assoc, Hl. unfold seq_log. rewrite map_app.
      repeat split; [exact Hp | | destruct later; exact I].
      intros o' Ho'. eapply forced_mono; [exact Hm|].
      apply in_app_or in Ho' as [Ho' | [<- | []]]; [apply Hd; exact Ho' | exact Hf].
  Qed.

  Lemma step_inv m t : inv m -> inv (step E m t).
  Proof.
    intros [Hg Hth]. destruct (step_thread_ok (glob m) t (threads m t) Hg (Hth t)) as (Hg' & Hm & Ht').
    unfold step. split; cbn [glob threads]; [exact Hg'|].
    intros u. unfold upd. destruct (Nat.eqb_spec u t) as [-> | Hne]; [exact Ht'|].
    eapply thread_ok_mono; [exact Hm | apply Hth].
  Qed.

  Lemma start_inv ks : inv (start progs ks).
  Proof.
    split; cbn [start glob threads].
    - split.
      + intros c v Hv. discriminate Hv.
      + intros p s [].
    - intros t. exists []. cbn [start_thread todo log ph app]. split; [reflexivity|]. split; [reflexivity|].
      split; [intros o []|]. destruct (progs t); exact I.
  Qed.

  Lemma run_sched_inv sched : forall m, inv m -> inv (run_sched E sched m).
  Proof.
    induction sched as [|t sched IH]; intros m Hm; [exact Hm|].
    cbn [run_sched fold_left]. apply IH. apply step_inv. exact Hm.
  Qed.

  Lemma reachable_inv ks sched : inv (run_sched E sched (start progs ks)).
  Proof. apply run_sched_inv, start_inv. Qed.

  Lemma inv_observes m : inv m -> observes_sequential E seq_result progs m.
  Proof.
    intros [_ Hth] t. destruct (Hth t) as (done & Hp & Hl & _). exists done. split; assumption.
  Qed.

  Lemma inv_finished m : inv m -> finished m ->
    (forall t, log (threads m t) = seq_log E seq_result (progs t)) /\ cells_final E v0 progs m.
  Proof.
    intros [Hg Hth] Hfin. split.
    - intros t. destruct (Hth t) as (done & Hp & Hl & _). rewrite (Hfin t), app_nil_r in Hp.
      rewrite Hp. exact Hl.
    - intros c. split.
      + intros (t & o & f & Ho & Hgf & Hc).
        destruct (Hth t) as (done & Hp & _ & Hd & _). rewrite (Hfin t), app_nil_r in Hp. rewrite Hp in Ho.
        eapply forced_view; [exact Hg | apply Hd; exact Ho | exact Hgf | exact Hc].
      + intros Hn. destruct (cells (glob m) c) as [v|] eqn:Ec; [|reflexivity].
        destruct Hg as [Hgc _]. destruct (Hgc c v Ec) as [_ Hneeded]. contradiction.
  Qed.

  (* two complete runs leave the same logs and the same globals: a cell that is
     set is needed, hence set to the same value in the other run *)
  Lemma inv_agree m1 m2 : inv m1 -> inv m2 -> finished m1 -> finished m2 ->
    (forall t, log (threads m1 t) = log (threads m2 t)) /\
    (forall c, cells (glob m1) c = cells (glob m2) c).
  Proof.
    intros I1 I2 H1 H2.
    destruct (inv_finished m1 I1 H1) as [Hl1 Hc1], (inv_finished m2 I2 H2) as [Hl2 Hc2].
    split; [intros t; rewrite Hl1, Hl2; reflexivity|].
    intros c. destruct I1 as [[Hg1 _] _], I2 as [[Hg2 _] _].
    destruct (cells (glob m1) c) as [v|] eqn:E1.
    - destruct (Hg1 c v E1) as [-> Hn]. symmetry. apply Hc2, Hn.
    - destruct (cells (glob m2) c) as [w|] eqn:E2; [|reflexivity].
      destruct (Hg2 c w E2) as [_ Hn]. rewrite (proj1 (Hc1 c) Hn) in E1. discriminate E1.
  Qed.
End Invariant.

Theorem machine_schedule_independent {F C K Sc R V : Type} (E : engine F C K Sc R V)
        (seq_result : F -> C -> R) (v0 : nat -> V) (Inv : nat -> Sc -> Prop) :
  engine_ok E seq_result v0 Inv -> schedule_independent E seq_result v0.
Proof.
  intros OK progs ks sched m. pose proof (reachable_inv E seq_result v0 Inv OK progs ks sched) as Hinv.
  split; [eapply inv_observes | eapply inv_finished]; exact Hinv.
Qed.

Theorem machine_two_schedules {F C K Sc R V : Type} (E : engine F C K Sc R V)
        (seq_result : F -> C -> R) (v0 : nat -> V) (Inv : nat -> Sc -> Prop) :
  engine_ok E seq_result v0 Inv ->
  forall progs ks1 ks2 s1 s2,
    let m1 := run_sched E s1 (start progs ks1) in
    let m2 := run_sched E s2 (start progs ks2) in
    finished m1 -> finished m2 ->
    (forall t, log (threads m1 t) = log (threads m2 t)) /\
    (forall c, cells (glob m1) c = cells (glob m2) c).
Proof.
  intros OK progs ks1 ks2 s1 s2. eapply inv_agree; apply reachable_inv; exact OK.
Qed.

Lemma closure_run_is_run_filter sch e c : closure_run (compile_lexpr sch e) c = run_filter sch e c.
Proof. unfold closure_run, run_filter. destruct (compile_lexpr sch e) as [[g|g]|]; reflexivity. Qed.

Lemma filter_engine_ok sch es cs :
  engine_ok (filter_engine sch es cs) closure_run (fun _ => tt) (fun _ _ => True).
Proof.
  constructor.
  - intros t c. reflexivity.
  - intros p. exact I.
  - intros view k s i f c _ _ _. cbn. split; [reflexivity | exact I].
Qed.

Lemma filter_engine_obs sch es cs o e c :
  nth_error es (op_fid o) = Some e -> nth_error cs (op_cid o) = Some c ->
  seq_obs (filter_engine sch es cs) closure_run o = Some (run_filter sch e c).
Proof.
  intros He Hc. unfold seq_obs, getf, getc. cbn [filter_engine e_filters e_ctxs].
  rewrite nth_error_map, He, Hc. cbn [option_map]. rewrite closure_run_is_run_filter. reflexivity.
Qed.

Theorem filter_engine_obs_denote sch es cs o e c :
  nth_error es (op_fid o) = Some e -> nth_error cs (op_cid o) = Some c ->
  wt_filter sch e = true -> ctx_ok sch c = true -> fns_ok sch ->
  exists b, seq_obs (filter_engine sch es cs) closure_run o = Some (Some b) /\
            denote_filter sch e c = Some b.
Proof.
  intros He Hc Hwt Hctx Hf. destruct (filter_exec_is_denote sch e c Hwt Hctx Hf) as (b & Hr & Hd).
  exists b. split; [|exact Hd]. rewrite (filter_engine_obs sch es cs o e c He Hc), Hr. reflexivity.
Qed.

Definition leaf_seq (f : leaf * nat) (hay : bytes) : option bool :=
  match fst f with
  | LContains needle => Some (occurs needle hay)
  | LMatches r => Some (regex_run r hay)
  end.

Definition leaf_v0 (env : penv) (c : nat) : nat := leaf_init env 0 c.

Definition cache_valid (r : regex_ast) (s : cache) : Prop :=
  forall h v, cache_find h s = Some v -> v = regex_run r h.

Definition leaf_inv (fs : list (leaf * nat)) (p : nat) (s : cache) : Prop :=
  forall f r, nth_error fs p = Some f -> fst f = LMatches r -> cache_valid r s.

Lemma anchor_of_lt k needle : 2 <= length needle -> anchor_of k needle < length needle.
Proof.
  intros H. unfold anchor_of.
  assert (k mod (length needle - 1) < length needle - 1) by (apply Nat.mod_upper_bound; lia). lia.
Qed.

Lemma existsb_is_occurs b hay : existsb (N.eqb b) hay = occurs [b] hay.
Proof.
  assert (H := single_byte_spec false 0 b hay).
  rewrite (dispatch_spec false 0 [b] hay) in H by (cbn [length]; lia).
  injection H as H. symmetry. exact H.
Qed.

Lemma memchr_via_spec impl b hay : memchr_via impl b hay = occurs [b] hay.
Proof.
  unfold memchr_via. destruct impl as [[|n]|]; [apply existsb_is_occurs | |]; apply memchr_search_spec.
Qed.

Lemma leaf_contains_spec view k s needle hay :
  leaf_run view k s (LContains needle) hay = (Some (occurs needle hay), s).
Proof.
  destruct needle as [|b [|c t]]; cbn [leaf_run].
  - rewrite dispatch_spec by (cbn [length]; lia). reflexivity.
  - rewrite memchr_via_spec. reflexivity.
  - rewrite dispatch_spec; [reflexivity|]. intros H. apply anchor_of_lt. exact H.
Qed.

Lemma cache_valid_nil r : cache_valid r [].
Proof. intros h v H. discriminate H. Qed.

Lemma leaf_matches_spec view k s r hay : cache_valid r s ->
  fst (leaf_run view k s (LMatches r) hay) = Some (regex_run r hay) /\
  cache_valid r (snd (leaf_run view k s (LMatches r) hay)).
Proof.
  intros Hs. cbn [leaf_run]. destruct (cache_find hay s) as [v|] eqn:Ef; cbn [fst snd].
  - split; [f_equal; apply Hs; exact Ef | exact Hs].
  - split; [reflexivity|]. intros h v Hv. cbn [cache_find] in Hv.
    destruct (bytes_eqb hay h) eqn:Eq.
    + apply bytes_eqb_eq in Eq. subst h. injection Hv as <-. reflexivity.
    + apply Hs. exact Hv.
Qed.

Lemma leaf_engine_ok env fs hs :
  engine_ok (leaf_engine env fs hs) leaf_seq (leaf_v0 env) (leaf_inv fs).
Proof.
  constructor.
  - intros t c. reflexivity.
  - intros p f r _ _. apply cache_valid_nil.
  - intros view k s i [l k0] hay Hgf _ Hinv. cbn [leaf_engine e_run e_pool fst].
    unfold leaf_seq. cbn [fst]. destruct l as [needle | r].
    + rewrite leaf_contains_spec. cbn [fst snd]. split; [reflexivity | exact Hinv].
    + assert (Hs : cache_valid r s) by (apply (Hinv (LMatches r, k0) r); [exact Hgf | reflexivity]).
      destruct (leaf_matches_spec view k s r hay Hs) as [Hres Hval]. split; [exact Hres|].
      intros f' r' Hf' Hr'. unfold getf in Hgf. cbn [leaf_engine e_filters] in Hgf.
      rewrite Hgf in Hf'. injection Hf' as <-. cbn [fst] in Hr'. injection Hr' as <-. exact Hval.
Qed.

Definition two_threads (p0 p1 : list op) : nat -> list op :=
  fun t => match t with 0 => p0 | 1 => p1 | _ => [] end.

(* a global whose initial value depends on who computes it: thread 1 wins the
   publication race and thread 0, which computed 0 itself, observes 1 *)
Definition bad_init_progs : nat -> list op := two_threads [Exec 0 0] [Exec 0 0].
Definition bad_init_sched_race : list nat := [0; 0; 1; 1; 1; 0; 0; 0; 1; 1].
Definition bad_init_sched_seq : list nat := [0; 0; 0; 0; 0; 1; 1; 1; 1].

Lemma bad_init_sequentially_correct : sequentially_correct bad_init_engine (fun _ _ => 0).
Proof.
  intros fid cid f c ks Hf Hc. destruct fid as [|[|fid]]; try discriminate Hf.
  destruct cid as [|[|cid]]; try discriminate Hc. vm_compute. reflexivity.
Qed.

Lemma bad_init_race_observed :
  let m := run_sched bad_init_engine bad_init_sched_race (start bad_init_progs (fun _ => [])) in
  finished m /\ log (threads m 0) = [(Exec 0 0, Some 1)].
Proof.
  split.
  - intros [|[|t]]; vm_compute; reflexivity.
  - vm_compute. reflexivity.
Qed.

Lemma bad_init_seq_observed :
  let m := run_sched bad_init_engine bad_init_sched_seq (start bad_init_progs (fun _ => [])) in
  finished m /\ log (threads m 0) = [(Exec 0 0, Some 0)].
Proof.
  split.
  - intros [|[|t]]; vm_compute; reflexivity.
  - vm_compute. reflexivity.
Qed.

Theorem full_refuted : ~ C18_full.
Proof.
  intros H.
  destruct (H _ _ _ _ _ _ bad_init_engine (fun _ _ => 0) bad_init_sequentially_correct
              bad_init_progs (fun _ => []) bad_init_sched_race) as [_ Hfin].
  destruct bad_init_race_observed as [Hf Hl]. specialize (Hfin Hf 0). rewrite Hl in Hfin.
  discriminate Hfin.
Qed.

(* one cache for all compiled regexes, keyed by the haystack: /a/ fills it,
   /b/ then reads /a/'s answer for the same haystack *)
Definition rx_a : regex_ast := RLit 97.
Definition rx_b : regex_ast := RLit 98.
Definition bad_cache_E : engine (leaf * nat) bytes nat cache (option bool) nat :=
  bad_cache_engine {| env_avx2 := true; env_memchr := 2 |} [(LMatches rx_a, 0); (LMatches rx_b, 0)] [[97%N]].
Definition bad_cache_progs : nat -> list op := two_threads [Exec 0 0] [Exec 1 0].
Definition sched_0_then_1 : list nat := repeat 0 5 ++ repeat 1 5.
Definition sched_1_then_0 : list nat := repeat 1 5 ++ repeat 0 5.

Lemma bad_cache_sequentially_correct : sequentially_correct bad_cache_E leaf_seq.
Proof.
  intros fid cid f c ks Hf Hc. destruct fid as [|[|[|fid]]]; try discriminate Hf;
    (destruct cid as [|[|cid]]; try discriminate Hc); injection Hf as <-; injection Hc as <-;
    vm_compute; reflexivity.
Qed.

Lemma bad_cache_observed :
  let m1 := run_sched bad_cache_E sched_0_then_1 (start bad_cache_progs (fun _ => [])) in
  let m2 := run_sched bad_cache_E sched_1_then_0 (start bad_cache_progs (fun _ => [])) in
  finished m1 /\ finished m2 /\
  log (threads m1 1) = [(Exec 1 0, Some (Some true))] /\
  log (threads m2 1) = [(Exec 1 0, Some (Some false))] /\
  log (threads m1 0) = [(Exec 0 0, Some (Some true))] /\
  log (threads m2 0) = [(Exec 0 0, Some (Some false))] /\
  regex_run rx_a [97%N] = true /\ regex_run rx_b [97%N] = false.
Proof.
  repeat split; try (intros [|[|t]]; vm_compute; reflexivity); vm_compute; reflexivity.
Qed.

(* non-vacuity: a run of the good leaf engine in which the publication race
   happens (thread 0 loses it), the regex cache is reused by another thread,
   a recompilation draws another anchor, and everything agrees *)
Definition demo_E (avx2 : bool) : engine (leaf * nat) bytes nat cache (option bool) nat :=
  leaf_engine {| env_avx2 := avx2; env_memchr := 2 |}
              [(LContains [108; 108; 111]%N, 0); (LMatches (RSeq (RLit 108) (RLit 111)), 0); (LContains [111]%N, 0)]
              [[104; 101; 108; 108; 111]%N; [104; 101; 108; 112]%N].
Definition demo_progs : nat -> list op :=
  two_threads [Exec 0 0; Exec 1 0; Recompile 0 1; Exec 2 0] [Exec 0 0; Exec 1 0; Recompile 0 0; Exec 1 1].
Definition demo_sched : list nat :=
  [0; 0; 1; 1; 1; 0] ++ round_robin 2 40.
