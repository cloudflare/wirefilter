(* C01 — Scalar comparisons and boolean logic evaluate per the reference
   semantics.  Property theorems only. *)
From Coq Require Import List ZArith.
From WF Require Import Base.Bytes Sem.RangeSet Lang.Types Lang.Ast Lang.Context
     Sem.Compile Spec.Denote Spec.Typing Proofs.ScalarProofs Parse.Climb
     Parse.Lex Parse.Parser Spec.Grammar Proofs.ClimbText Proofs.GrammarProofs Proofs.CallProofs Proofs.FullProofs Proofs.ParserClosed.
Import ListNotations.

(* Compiling and executing a scalar filter (comparisons of Int / Bytes / Ip /
   Bool fields with literals, bitwise-and test, in {..}, in $list, bare boolean
   fields, joined by not / and / xor / or / parentheses) returns exactly the
   denotation, and never panics, for every scheme, every such filter (any size
   and depth) and every well-formed context (optional fields present or
   absent, both nil-not-equal settings). *)
Theorem C01_exec_is_denote : forall (sch : scheme) (e : lexpr) (c : ctx),
  scalar sch e = true -> ctx_ok sch c = true ->
  exists b, run_filter sch e c = Some b /\ denote_filter sch e c = Some b.
Proof. exact scalar_exec_is_denote. Qed.

(* The operator tables: Rust's comparison operators on i64 and [u8] and the
   OrderingOp bit masks on IpAddr implement <, <=, >, >=, ==, != on a total
   order, and only != on incomparable (v4/v6) pairs. *)
Theorem C01_int_ops : forall o a z, int_op o a z = ord_holds o (Some (a ?= z)%Z).
Proof. exact int_op_spec. Qed.
Theorem C01_bytes_ops : forall o a b, bytes_op o a b = ord_holds o (Some (bytes_compare a b)).
Proof. exact bytes_op_spec. Qed.
Theorem C01_ip_ops : forall o x a, ord_matches_opt o (ip_strict_cmp x a) = ord_holds o (ip_compare x a).
Proof. exact ip_op_spec. Qed.

(* Binding strength: the precedence-climbing loop with look-ahead builds the
   stratified tree (or-list of xor-lists of and-lists, same-operator runs
   flattened) for chains of any length and operator mix. *)
Theorem C01_climb_is_stratified : forall (A : Type) (x : @orl A),
  simple_orl x -> More (first_or x) None (rest_or x) (build_or x, []).
Proof. exact (@climb_is_stratified). Qed.

(* The parser model's climbing functions refine that loop: on a text that reads as a chain of simple
   expressions and operators, lex_more / lex_inner (the mirror of lex_more_with_precedence) return what
   More / Inner return (LFuel apart).  ChainRep: Proofs/ClimbText.v. *)
Theorem C01_parser_climb_refines_loop : forall sch st d cls,
  (forall a b, cls a = true -> cls b = true -> types_combinable a b = true) ->
  (forall lhs minp c res, More lhs minp c res -> P_more sch st d cls lhs minp c res) /\
  (forall rhs o c res, Inner rhs o c res -> P_inner sch st d cls rhs o c res).
Proof. exact climb_sim. Qed.

(* Text level: every text of the surface grammar (Spec/Grammar.v: comparisons of a field - possibly indexed
   with [n] / ["key"] / [*] - with a literal in any literal form, `in {..}` lists of values, ranges and CIDRs,
   `in $list`, contains, bare boolean fields, not / ! , parentheses, and / xor / or in either spelling, any
   white-space layout) is parsed to the AST the grammar assigns to it - binding strength not > and > xor >
   or - and executing that AST on any well-formed context gives its denotation. *)
Theorem C01_text_level : forall sch st text e c,
  GFilter sch st text e -> ctx_ok sch c = true -> fns_ok sch ->
  parse_filter sch st text = LOk e [] /\
  exists b, run_filter sch e c = Some b /\ denote_filter sch e c = Some b.
Proof.
  intros sch st text e c HG Hc Hf. pose proof (filter_grammar_parses sch st text e HG) as Hp.
  split; [exact Hp|]. apply filter_exec_is_denote; [|assumption|assumption].
  pose proof (parse_filter_post sch st text) as P. rewrite Hp in P. exact (proj1 (proj1 P)).
Qed.

(* the grammar is inhabited: a mixed filter with both spellings, a dotted name, a line break *)
Example C01_text_level_instance :
  GFilter gex_sch default_settings gex_text (interp (build_or gex_x)) /\
  parse_filter gex_sch default_settings gex_text =
    LOk (ECombining LOr (LCons (ECombining LAnd (LCons gex_a1 (LCons gex_a2 LNil))) (LCons gex_a3 (LCons gex_a4 LNil)))) [].
Proof. split; [exact gex_in_grammar|exact gex_parses]. Qed.

(* Non-vacuity: a concrete mixed filter over a concrete context. *)
Definition ex_scheme : scheme :=
  {| sc_fields := [ {| fd_name := [110]%N; fd_ty := TInt; fd_optional := false |};
                    {| fd_name := [115]%N; fd_ty := TBytes; fd_optional := true |};
                    {| fd_name := [105]%N; fd_ty := TIp; fd_optional := true |} ];
     sc_functions := []; sc_lists := []; sc_nil_ne := true |}.
Definition ex_filter : lexpr :=
  ECombining LOr (LCons (ECombining LAnd (LCons (EComparison (IField 0 []) (COrd OLt (RInt 5)))
                                           (LCons (ENot (EComparison (IField 1 []) (COrd ONe (RBytes [97]%N FQuoted)))) LNil)))
                 (LCons (EParen (EComparison (IField 2 []) (COrd ONe (RIp (V6 1))))) LNil)).
Definition ex_ctx : ctx := {| cx_vals := [Some (VInt (-9223372036854775808)); None; Some (VIp (V4 1))]; cx_lists := [] |}.
Example C01_premises_satisfiable :
  scalar ex_scheme ex_filter = true /\ ctx_ok ex_scheme ex_ctx = true /\
  run_filter ex_scheme ex_filter ex_ctx = Some true.
Proof. vm_compute. repeat split. Qed.

Check C01_exec_is_denote : forall (sch : scheme) (e : lexpr) (c : ctx),
  scalar sch e = true -> ctx_ok sch c = true ->
  exists b, run_filter sch e c = Some b /\ denote_filter sch e c = Some b.
Check C01_text_level : forall sch st text e c,
  GFilter sch st text e -> ctx_ok sch c = true -> fns_ok sch ->
  parse_filter sch st text = LOk e [] /\
  exists b, run_filter sch e c = Some b /\ denote_filter sch e c = Some b.
