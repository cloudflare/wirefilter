(* C09 — Set membership `in {...}` is exact for any list of values, ranges and
   CIDRs.  Property theorems only. *)
From Coq Require Import List ZArith Sorted Permutation.
From WF Require Import Base.Bytes Sem.RangeSet Spec.C09 Proofs.RangeSetProofs Proofs.C09Proofs.
Import ListNotations.
Open Scope Z_scope.

(* Integers: for every list of ranges (any length and order, overlapping,
   nested, touching, even reversed) and every probe, present or absent. *)
Theorem C09_int : forall (items : list range) (x : option Z),
  oneof_int items x = Some (spec_in_int items x).
Proof. exact oneof_int_spec. Qed.

(* IP addresses: explicit ranges and CIDR blocks of both families mixed. *)
Theorem C09_ip : forall (items : list ip_item) (x : option ip),
  Forall ip_item_wf items -> oneof_ip items x = Some (spec_in_ip items x).
Proof. exact oneof_ip_spec. Qed.

Theorem C09_bytes : forall (items : list bytes) (x : option bytes),
  oneof_bytes items x = Some (spec_in_bytes items x).
Proof. exact oneof_bytes_spec. Qed.

(* The result does not depend on which (unstable) sort the library uses. *)
Theorem C09_any_sort : forall (l l' : list range) (x : Z),
  Permutation l l' -> StronglySorted by_start l' ->
  rangeset_contains (merge l') x = Some (existsb (in_range x) l).
Proof. exact rangeset_any_sort. Qed.

Theorem C09_cidr_range : forall bits a n v,
  0 <= n <= bits -> a mod 2 ^ (bits - n) = 0 ->
  in_range v (cidr_range bits a n) = in_cidr bits a n v.
Proof. exact cidr_range_spec. Qed.

(* Non-vacuity: a list with a block that has real host bits meets the premise. *)
Example C09_ip_premise_satisfiable :
  Forall ip_item_wf [IpCidr4 167772160 8; IpRange6 5 3; IpCidr6 0 0; IpCidr4 16909060 32].
Proof. repeat constructor; cbn; try discriminate. Qed.

Example C09_int_nontrivial :
  oneof_int [(5, 9); (-9223372036854775808, -9223372036854775808); (7, 20); (21, 21); (3, 1)] (Some 21)
  = Some true.
Proof. vm_compute. reflexivity. Qed.

Check C09_int : forall (items : list range) (x : option Z),
  oneof_int items x = Some (spec_in_int items x).
Check C09_ip : forall (items : list ip_item) (x : option ip),
  Forall ip_item_wf items -> oneof_ip items x = Some (spec_in_ip items x).
Check C09_bytes : forall (items : list bytes) (x : option bytes),
  oneof_bytes items x = Some (spec_in_bytes items x).

Print Assumptions C09_int.
Print Assumptions C09_ip.
Print Assumptions C09_bytes.
Print Assumptions C09_any_sort.
Print Assumptions C09_cidr_range.
