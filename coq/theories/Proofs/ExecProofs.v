(* Index expressions compiled as values agree with [select] / [sel_vres] of the
   specification; element-wise logic on boolean arrays. *)
From Coq Require Import List NArith Bool Arith.
From WF Require Import Lang.Types Lang.Ast Lang.Context Sem.Compile Spec.Denote Spec.Typing
     Proofs.ListFacts Proofs.ScalarProofs Proofs.ValueProofs Proofs.IndexProofs Proofs.ByteKeys.
Import ListNotations.

Definition vres_typed (r : vres) (t : ty) : bool :=
  match r with VOk v => has_type v t | VAbsent _ => true end.

Definition vres_elems (r : vres) : option (list value) :=
  match r with VOk v => Some (elems v) | VAbsent _ => None end.

Definition vres_container (r : vres) : Prop :=
  match r with VOk (VArray _ _) | VOk (VMap _ _) | VAbsent _ => True | VOk _ => False end.

Definition res_of (base : option value) (t0 : ty) : vres :=
  match base with Some v => VOk v | None => VAbsent t0 end.

Lemma last_is_each_last idx : idx <> [] -> last_is_each idx = index_is_each (last idx (IArr 0)).
Proof.
  induction idx as [|i r IH]; intros H; [congruence|]. destruct r as [|j r']; [reflexivity|].
  change (last_is_each (i :: j :: r')) with (last_is_each (j :: r')).
  change (last (i :: j :: r') (IArr 0)) with (last (j :: r') (IArr 0)). apply IH. discriminate.
Qed.

Lemma typed_type_of t l :
  Forall (fun x => has_type x t = true) l -> forallb (fun x => ty_eqb (type_of x) t) l = true.
Proof. intros H. apply forallb_Forall. exact (Forall_impl _ (fun x => has_type_ty x t) H). Qed.

Lemma array_of_typed t l : Forall (fun x => has_type x t = true) l -> array_of t l = Some (VArray t l).
Proof. intros H. unfold array_of. now rewrite typed_type_of. Qed.

Lemma has_type_container v s t : has_type v s = true -> ty_next s = Some t -> vres_container (VOk v).
Proof. intros Hv Hn. apply has_type_inv in Hv. destruct Hv as [<- _]. now destruct v. Qed.

(* IndexExpr compiled as a value expression: the closures of [compile_index_value] *)
Definition civ_plain (is_call : bool) (src_res : cval) (idx : list index) (last : nat) (t : ty) : cval :=
  if Nat.eqb last 0 then
    (if is_call then src_res
     else fun c => r <- src_res c ;; Some (match r with VOk v => VOk v | VAbsent _ => VAbsent t end))
  else
    fun c =>
      r <- src_res c ;;
      match r with
      | VAbsent _ => Some (VAbsent t)
      | VOk v =>
          o <- get_nested v (firstn last idx) ;;
          Some (match o with Some x => VOk x | None => VAbsent t end)
      end.

Definition civ_iter (src_res : cval) (idx : list index) (t : ty) : cval :=
  fun c =>
    r <- src_res c ;;
    match r with
    | VAbsent _ => Some (VAbsent (TArray t))
    | VOk v => items <- mei_collect idx v ;; a <- array_of t items ;; Some (VOk a)
    end.

Lemma compile_index_value_eq is_call src_res t0 idx :
  compile_index_value is_call src_res t0 idx =
  (t <- ty_index t0 idx ;;
   Some (match map_each_count idx with
         | O => civ_plain is_call src_res idx (length idx) t
         | S O => if last_is_each idx then civ_plain is_call src_res idx (length idx - 1) (TArray t)
                  else civ_iter src_res idx t
         | _ => civ_iter src_res idx t
         end)).
Proof.
  unfold compile_index_value. destruct (ty_index t0 idx); [|reflexivity].
  destruct (map_each_count idx) as [|[|n]]; try reflexivity. now destruct (last_is_each idx).
Qed.

Section WithCtx.
Variable c : ctx.

Lemma civ_plain_spec is_call (src_res : cval) base tX t0 idx k T s :
  src_res c = Some (res_of base tX) -> (forall v, base = Some v -> has_type v t0 = true) ->
  ty_index_ok t0 (firstn k idx) = Some s -> map_each_count (firstn k idx) = 0%nat ->
  civ_plain is_call src_res idx k T c =
  Some (match base with
        | Some v => match get_path v (firstn k idx) with Some x => VOk x | None => VAbsent T end
        | None => VAbsent (if is_call && Nat.eqb k 0 then tX else T)
        end).
Proof.
  intros Hsrc Hbase Hs En. unfold civ_plain. destruct (Nat.eqb k 0) eqn:Ek.
  - apply Nat.eqb_eq in Ek. subst k. destruct is_call; rewrite Hsrc; now destruct base.
  - rewrite Hsrc, andb_false_r. destruct base as [v|]; [|reflexivity]. cbn [res_of].
    now destruct (get_nested_typed _ v t0 s (Hbase v eq_refl) Hs En) as (-> & _).
Qed.

Lemma civ_iter_spec (src_res : cval) base tX t0 idx t :
  src_res c = Some (res_of base tX) -> (forall v, base = Some v -> has_type v t0 = true) ->
  ty_index_ok t0 idx = Some t -> idx <> [] ->
  civ_iter src_res idx t c =
  Some (match base with Some v => VOk (VArray t (flatten idx v)) | None => VAbsent (TArray t) end).
Proof.
  intros Hsrc Hbase Hidx Hne. unfold civ_iter. rewrite Hsrc. destruct base as [v|]; [|reflexivity]. cbn [res_of].
  rewrite (mei_collect_is_flatten idx v t0 t Hne (Hbase v eq_refl) Hidx).
  now rewrite (array_of_typed t _ (flatten_typed idx v t0 t (Hbase v eq_refl) Hidx)).
Qed.

Definition civ_post (base : option value) (idx : list index) (t : ty) (r : vres) : Prop :=
  (map_each_count idx = 0%nat -> r = sel_vres (select base idx) t false /\ vres_typed r t = true) /\
  (map_each_count idx <> 0%nat ->
     match select base idx with
     | SMany l => vres_elems r = (if prefix_absent base idx then None else Some l) /\
                  Forall (fun x => has_type x t = true) l /\ vres_container r
     | _ => False
     end).

Lemma compile_index_value_spec is_call (src_res : cval) base tX t0 idx t :
  src_res c = Some (res_of base tX) -> (is_call = true -> tX = t0) ->
  (forall v, base = Some v -> has_type v t0 = true) ->
  ty_index_ok t0 idx = Some t ->
  exists cv, compile_index_value is_call src_res t0 idx = Some cv /\
             match cv c with Some r => civ_post base idx t r | None => False end.
Proof.
  intros Hsrc HtX Hbase Hidx. rewrite compile_index_value_eq, <- ty_index_ok_eq, Hidx.
  eexists; split; [reflexivity|]. unfold civ_post, select, prefix_absent.
  destruct (map_each_count idx) as [|n] eqn:En; cbn [Nat.eqb andb].
  - (* no [*]: the value at the path *)
    rewrite (civ_plain_spec is_call src_res base tX t0 idx _ t t Hsrc Hbase); rewrite firstn_all; try assumption.
    split; [intros _|easy]. destruct base as [v|].
    + destruct (get_nested_typed idx v t0 t (Hbase v eq_refl) Hidx En) as (_ & Hx).
      destruct (get_path v idx) as [x|]; split; cbn; auto.
    + destruct is_call, idx; cbn in Hidx |- *; auto. rewrite HtX by reflexivity. now injection Hidx as ->.
  - assert (Hne : idx <> []) by (intros ->; discriminate En).
    rewrite <- (last_is_each_last idx Hne).
    destruct n; [destruct (last_is_each idx) eqn:El|]; cbn [Nat.eqb andb];
      try (rewrite (civ_iter_spec src_res base tX t0 idx t Hsrc Hbase Hidx Hne); split; [easy|intros _];
           destruct base as [v|]; repeat split; eauto using flatten_typed).
    (* a single trailing [*]: the container itself *)
    destruct (trailing_each idx t0 t El En Hidx) as (p & s & -> & _ & Ep & Hp & Hn).
    rewrite app_length, Nat.add_sub, removelast_last.
    rewrite (civ_plain_spec is_call src_res base tX t0 _ _ (TArray t) s Hsrc Hbase); rewrite firstn_app_exact; try assumption.
    split; [easy|intros _]. destruct base as [v|]; [|repeat split; auto].
    rewrite (flatten_prefix_each p v Ep).
    destruct (get_nested_typed p v t0 s (Hbase v eq_refl) Hp Ep) as (_ & Hx).
    destruct (get_path v p) as [x|]; [|repeat split; auto].
    split; [reflexivity|]. split; [apply (elems_typed x s t)|apply (has_type_container x s t)]; auto.
Qed.

Lemma zip_trunc_spec op : forall a b, zip_trunc op a b = map2_trunc (lop_spec op) a b.
Proof. induction a as [|x a IH]; destruct b as [|y b]; cbn; try reflexivity. rewrite IH. now destruct op. Qed.

Definition evals_vec (fs : list cvec) (ls : list (list bool)) : Prop :=
  Forall2 (fun f l => f c = Some l) fs ls.

Lemma run_vec_spec op fs ls : evals_vec fs ls ->
  forall out, run_vec op out fs c = Some (fold_left (map2_trunc (lop_spec op)) ls out).
Proof.
  induction 1 as [|f l fs ls Hf _ IH]; intros out; cbn; [reflexivity|]. rewrite Hf, IH, zip_trunc_spec. reflexivity.
Qed.

Lemma all_vec_map fs : all_vec (map CVec fs) = Some fs.
Proof. induction fs as [|f fs IH]; cbn; [reflexivity|]. now rewrite IH. Qed.

End WithCtx.
