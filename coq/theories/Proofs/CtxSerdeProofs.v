(* C14: proofs about the JSON form of values and execution contexts
   (Sem/CtxSerde.v) against Spec/C14.v: every Rust value and every well-formed
   context comes back from its JSON form; whatever the document, a successful
   read stores only values of the declared types and no step of the reader can
   panic; the reader equals the state-free specification [spec_ctx_of_json]; a
   document without repeated keys and without entries in a list section is
   read the same way from a value tree. *)
From Coq Require Import List ZArith Bool Lia.
From WF Require Import Base.Bytes Lang.Types Lang.Context Spec.Typing
     Sem.TypeCodec Sem.CtxSerde Parse.Lex Spec.C15 Spec.C14
     Proofs.ListFacts Proofs.ScalarProofs Proofs.ByteKeys Proofs.TypeCodecProofs Proofs.IpTextProofs.
Import ListNotations.
Local Open Scope nat_scope.

Section ValueInd.
  Variable P : value -> Prop.
  Hypothesis Hbool : forall b, P (VBool b).
  Hypothesis Hbytes : forall b, P (VBytes b).
  Hypothesis Hint : forall z, P (VInt z).
  Hypothesis Hip : forall a, P (VIp a).
  Hypothesis Harr : forall t l, Forall P l -> P (VArray t l).
  Hypothesis Hmap : forall t l, Forall (fun kv : bytes * value => P (snd kv)) l -> P (VMap t l).

  Fixpoint value_ind' (v : value) : P v :=
    match v with
    | VBool b => Hbool b
    | VBytes b => Hbytes b
    | VInt z => Hint z
    | VIp a => Hip a
    | VArray t l =>
        Harr t l ((fix go (l : list value) : Forall P l :=
                     match l with
                     | [] => Forall_nil P
                     | x :: r => Forall_cons x (value_ind' x) (go r)
                     end) l)
    | VMap t l =>
        Hmap t l ((fix go (l : list (bytes * value)) : Forall (fun kv : bytes * value => P (snd kv)) l :=
                     match l with
                     | [] => Forall_nil _
                     | kv :: r => Forall_cons kv (value_ind' (snd kv)) (go r)
                     end) l)
    end.
End ValueInd.

Lemma has_type_self v : value_wf v = true -> has_type v (type_of v) = true.
Proof. intros H. unfold has_type. now rewrite ty_eqb_refl, H. Qed.

Lemma elems_wf {A} (f : A -> value) e (l : list A) :
  forallb (fun x => ty_eqb (type_of (f x)) e && value_wf (f x)) l = true <->
  Forall (fun x => has_type (f x) e = true) l.
Proof. unfold has_type. now rewrite forallb_forall, Forall_forall. Qed.

Lemma names_ascending_ssorted {A} (l : list (bytes * A)) : names_ascending l = true -> ssorted l.
Proof.
  induction l as [|[k v] l IH]; [easy|]. destruct l as [|[k2 v2] r]; [now repeat constructor|].
  rewrite ssorted_cons2. cbn [names_ascending]. unfold key_lt. cbn [fst].
  destruct (bytes_compare k k2); try discriminate. auto.
Qed.

Lemma all_ok_map {A B} (f : A -> result B) (g : B -> A) (l : list B) :
  Forall (fun y => f (g y) = Ok y) l -> all_ok f (map g l) = Ok l.
Proof. induction 1 as [|y l Hy _ IH]; [reflexivity|]. cbn. now rewrite Hy, IH. Qed.

Lemma all_ok_Ok_iff {A B} (f : A -> result B) : forall l ys,
  all_ok f l = Ok ys <-> Forall2 (fun x y => f x = Ok y) l ys.
Proof.
  induction l as [|x l IH]; intros ys; cbn [all_ok].
  - split; [intros [= <-]; constructor|now inversion 1].
  - split.
    + destruct (f x) as [y|] eqn:E; [|discriminate]. destruct (all_ok f l) as [ys'|]; [|discriminate].
      intros [= <-]. constructor; [exact E|now apply IH].
    + inversion 1 as [|? y ? ys' Hy Hys]; subst. now rewrite Hy, (proj2 (IH ys') Hys).
Qed.

Lemma all_ok_Forall {A B} (f : A -> result B) (P : B -> Prop) :
  (forall x y, f x = Ok y -> P y) -> forall l ys, all_ok f l = Ok ys -> Forall P ys.
Proof. intros HP l ys H%all_ok_Ok_iff. induction H; constructor; eauto. Qed.

Lemma all_ok_map_ext {A A' B} (f : A' -> result B) (g : A -> result B) (h : A -> A') (l : list A) :
  (forall x, In x l -> f (h x) = g x) -> all_ok f (map h l) = all_ok g l.
Proof.
  induction l as [|x l IH]; intros H; [reflexivity|]. cbn. rewrite (H x (or_introl eq_refl)), IH; [reflexivity|].
  intros y Hy. apply H. now right.
Qed.

Lemma all_ok_ext {A B} (f g : A -> result B) (l : list A) :
  (forall x, In x l -> f x = g x) -> all_ok f l = all_ok g l.
Proof. intros H. rewrite <- (map_id l) at 1. now apply all_ok_map_ext. Qed.

Lemma all_ok_Err_iff {A B} (f : A -> result B) (l : list A) :
  all_ok f l = Err <-> exists x, In x l /\ f x = Err.
Proof.
  induction l as [|x l IH]; cbn; [split; [discriminate|now intros (x & [] & _)]|].
  destruct (f x) as [y|] eqn:E; [|split; [now exists x; auto|reflexivity]].
  transitivity (all_ok f l = Err); [now destruct (all_ok f l)|]. rewrite IH.
  split; intros (z & Hz & Hf); exists z; [now auto|]. destruct Hz as [<-|Hz]; [congruence|auto].
Qed.

Lemma u8_roundtrip x : (x < 256)%N -> u8_of_json (JNum (Z.of_N x)) = Ok x.
Proof.
  intros H. unfold u8_of_json.
  destruct (Z.leb_spec 0 (Z.of_N x)); [|lia]. destruct (Z.ltb_spec (Z.of_N x) 256); [|lia]. cbn. now rewrite N2Z.id.
Qed.

Lemma nums_roundtrip b : are_bytes b = true -> all_ok u8_of_json (map (fun x => JNum (Z.of_N x)) b) = Ok b.
Proof.
  intros H. apply all_ok_map, Forall_forall. intros x Hx. apply u8_roundtrip, N.ltb_lt.
  exact (proj1 (forallb_forall _ _) H x Hx).
Qed.

Lemma bytes_roundtrip b : are_bytes b = true -> bytes_of_json (bytes_to_json b) = Ok b.
Proof. intros H. unfold bytes_to_json. destruct (utf8_valid b); [reflexivity|]. now apply nums_roundtrip. Qed.

Lemma ip_roundtrip a : ip_rust a = true -> ip_of_json (JStr (show_ip a)) = Ok a.
Proof.
  intros H. unfold ip_of_json. rewrite parse_show_ip; [reflexivity|].
  destruct a as [x|x]; apply andb_prop in H as [H1%Z.leb_le H2%Z.ltb_lt]; now split.
Qed.

Lemma int_json_roundtrip z : (I64_LO <=? z)%Z && (z <=? I64_HI)%Z = true -> int_of_json (JNum z) = Ok z.
Proof. intros H. unfold int_of_json. now rewrite H. Qed.

Lemma value_of_json_bool j :
  value_of_json TBool j = match bool_of_json j with Ok b => Ok (VBool b) | Err => Err end.
Proof. now destruct j. Qed.
Lemma value_of_json_int j :
  value_of_json TInt j = match int_of_json j with Ok z => Ok (VInt z) | Err => Err end.
Proof. now destruct j. Qed.
Lemma value_of_json_bytes j :
  value_of_json TBytes j = match bytes_of_json j with Ok b => Ok (VBytes b) | Err => Err end.
Proof. now destruct j. Qed.
Lemma value_of_json_ip j :
  value_of_json TIp j = match ip_of_json j with Ok a => Ok (VIp a) | Err => Err end.
Proof. now destruct j. Qed.

(* A container is read element by element - each must have the element type -
   and a map then collects its entries into a BTreeMap. *)
Definition dec_elem (e : ty) (x : json) : result value := elem_checked e (value_of_json e x).

Definition dec_member {A B} (g : A -> result B) (kv : bytes * A) : result (bytes * B) :=
  match g (snd kv) with Ok v => Ok (fst kv, v) | Err => Err end.

Definition dec_pair (e : ty) (p : json) : result (bytes * value) :=
  match p with
  | JArr [jk; x] => match bytes_of_json jk with Ok k => dec_member (dec_elem e) (k, x) | Err => Err end
  | _ => Err
  end.

Lemma value_of_json_arr e l :
  value_of_json (TArray e) (JArr l) = match all_ok (dec_elem e) l with Ok vs => Ok (VArray e vs) | Err => Err end.
Proof.
  cbn [value_of_json]. apply (f_equal (fun r => match r with Ok vs => Ok (VArray e vs) | Err => Err end)).
  induction l as [|x l IH]; [reflexivity|]. cbn [all_ok]. now rewrite IH.
Qed.

Lemma value_of_json_obj e es :
  value_of_json (TMap e) (JObj es)
  = match all_ok (dec_member (dec_elem e)) es with Ok kvs => Ok (VMap e (bt_of_list kvs)) | Err => Err end.
Proof.
  cbn [value_of_json]. unfold bt_of_list. generalize (@nil (bytes * value)).
  induction es as [|[k x] es IH]; intros m; [reflexivity|]. cbn [all_ok]. unfold dec_member at 1, dec_elem at 1. cbn [fst snd].
  destruct (elem_checked e (value_of_json e x)); [|reflexivity]. rewrite IH. now destruct (all_ok _ es).
Qed.

Lemma value_of_json_pairs e ps :
  value_of_json (TMap e) (JArr ps)
  = match all_ok (dec_pair e) ps with Ok kvs => Ok (VMap e (bt_of_list kvs)) | Err => Err end.
Proof.
  cbn [value_of_json]. unfold bt_of_list. generalize (@nil (bytes * value)).
  induction ps as [|p ps IH]; intros m; [reflexivity|]. cbn [all_ok].
  destruct p as [| | | |[|jk [|x [|]]]|]; try reflexivity. unfold dec_pair at 1, dec_member, dec_elem at 1. cbn [fst snd].
  destruct (bytes_of_json jk); [|reflexivity]. destruct (elem_checked e (value_of_json e x)); [|reflexivity].
  rewrite IH. now destruct (all_ok _ ps).
Qed.

Lemma dec_elem_inv e x v : dec_elem e x = Ok v -> value_of_json e x = Ok v /\ type_of v = e.
Proof.
  unfold dec_elem, elem_checked. destruct (value_of_json e x) as [v'|]; [|discriminate].
  destruct (ty_eqb (type_of v') e) eqn:E; [|discriminate]. intros [= ->]. now apply ty_eqb_eq in E.
Qed.

Lemma dec_elem_ok e x v : value_of_json e x = Ok v -> type_of v = e -> dec_elem e x = Ok v.
Proof. intros H <-. unfold dec_elem, elem_checked. now rewrite H, ty_eqb_refl. Qed.

Lemma dec_member_Ok {A B} (g : A -> result B) kv kv' :
  dec_member g kv = Ok kv' <-> keywise (fun x v => g x = Ok v) kv kv'.
Proof.
  unfold dec_member, keywise. destruct kv' as [k' v']. cbn [fst snd]. destruct (g (snd kv)); [|easy].
  split; [now intros [= <- <-]|now intros [<- [= <-]]].
Qed.

Lemma dec_pair_inv e p kv : dec_pair e p = Ok kv -> exists x, dec_elem e x = Ok (snd kv).
Proof.
  destruct p as [| | | |[|jk [|x [|]]]|]; try discriminate. unfold dec_pair.
  destruct (bytes_of_json jk); [|discriminate]. intros [_ H]%dec_member_Ok. now exists x.
Qed.

Lemma value_roundtrip_self : forall v,
  value_wf v = true -> value_rust v = true -> value_of_json (type_of v) (value_to_json v) = Ok v.
Proof.
  induction v as [b|b|z|a|t l IH|t l IH] using value_ind'; cbn [type_of value_to_json value_rust].
  - reflexivity.
  - intros _ Hr. now rewrite value_of_json_bytes, bytes_roundtrip.
  - intros _ Hr. now rewrite value_of_json_int, int_json_roundtrip.
  - intros _ Hr. now rewrite value_of_json_ip, ip_roundtrip.
  - intros Hwf Hr. rewrite value_of_json_arr, all_ok_map; [reflexivity|].
    apply (elems_wf (fun x => x)) in Hwf. rewrite forallb_forall in Hr. rewrite Forall_forall in *.
    intros x Hx. destruct (has_type_inv _ _ (Hwf x Hx)) as [<- Hw]. apply dec_elem_ok; auto.
  - intros [Hwf Hasc]%andb_prop Hr.
    apply (elems_wf snd) in Hwf. rewrite forallb_forall in Hr. rewrite Forall_forall in *.
    apply keys_ascending_ssorted in Hasc.
    assert (Hall : forall k v, In (k, v) l -> are_bytes k = true /\ dec_elem t (value_to_json v) = Ok v).
    { intros k v Hkv. destruct (andb_prop _ _ (Hr _ Hkv)) as [Hb Hv].
      destruct (has_type_inv _ _ (Hwf _ Hkv)) as [<- Hw]. split; [exact Hb|]. apply dec_elem_ok; auto. exact (IH _ Hkv Hw Hv). }
    destruct (forallb (fun kv : bytes * value => utf8_valid (fst kv)) l).
    + rewrite value_of_json_obj, all_ok_map; [now rewrite bt_of_list_sorted|].
      apply Forall_forall. intros [k v] Hkv. unfold dec_member. cbn [fst snd]. now rewrite (proj2 (Hall _ _ Hkv)).
    + rewrite value_of_json_pairs, all_ok_map; [now rewrite bt_of_list_sorted|].
      apply Forall_forall. intros [k v] Hkv. destruct (Hall _ _ Hkv) as [Hb Hv]. unfold dec_pair, dec_member. cbn [fst snd].
      now rewrite (bytes_roundtrip k Hb), Hv.
Qed.

Theorem value_roundtrip v t :
  has_type v t = true -> value_rust v = true -> value_of_json t (value_to_json v) = Ok v.
Proof. intros [<- Hw]%has_type_inv Hr. now apply value_roundtrip_self. Qed.

Lemma has_type_entries e kvs :
  Forall (fun kv : bytes * value => has_type (snd kv) e = true) kvs -> has_type (VMap e (bt_of_list kvs)) (TMap e) = true.
Proof.
  intros H. unfold has_type. cbn [type_of value_wf]. rewrite ty_eqb_refl. cbn [andb]. apply andb_true_intro. split.
  - apply (elems_wf snd), Forall_forall. intros kv [Hin|[]]%bt_add_In. rewrite Forall_forall in H. now apply H.
  - now apply keys_ascending_ssorted, bt_add_ssorted.
Qed.

Theorem value_of_json_typed : forall t j v, value_of_json t j = Ok v -> has_type v t = true.
Proof.
  induction t as [| | | |e IH|e IH]; intros j v H.
  - rewrite value_of_json_bool in H. destruct (bool_of_json j); now inversion H.
  - rewrite value_of_json_bytes in H. destruct (bytes_of_json j); now inversion H.
  - rewrite value_of_json_int in H. destruct (int_of_json j); now inversion H.
  - rewrite value_of_json_ip in H. destruct (ip_of_json j); now inversion H.
  - destruct j as [| | | |l|es]; try discriminate H. rewrite value_of_json_arr in H.
    destruct (all_ok (dec_elem e) l) as [vs|] eqn:E; [|discriminate]. injection H as <-.
    unfold has_type. cbn [type_of value_wf]. rewrite ty_eqb_refl. apply (elems_wf (fun x => x)).
    eapply all_ok_Forall; [|exact E]. intros x y [Hy _]%dec_elem_inv. exact (IH _ _ Hy).
  - assert (Hel : forall x y, dec_elem e x = Ok y -> has_type y e = true).
    { intros x y [Hy _]%dec_elem_inv. exact (IH _ _ Hy). }
    destruct j as [| | | |ps|es]; try discriminate H.
    + rewrite value_of_json_pairs in H. destruct (all_ok (dec_pair e) ps) as [kvs|] eqn:E; [|discriminate].
      injection H as <-. apply has_type_entries. eapply all_ok_Forall; [|exact E].
      intros p kv (x & Hx)%dec_pair_inv. eauto.
    + rewrite value_of_json_obj in H. destruct (all_ok (dec_member (dec_elem e)) es) as [kvs|] eqn:E; [|discriminate].
      injection H as <-. apply has_type_entries. eapply all_ok_Forall; [|exact E].
      intros x kv [_ Hx]%dec_member_Ok. eauto.
Qed.

Lemma value_of_json_type_of t j v : value_of_json t j = Ok v -> type_of v = t.
Proof. intros H%value_of_json_typed%has_type_inv. apply H. Qed.

Lemma store_app {A} (pre : list A) x y r : store (pre ++ x :: r) (length pre) y = Some (pre ++ y :: r).
Proof. induction pre as [|z pre IH]; [reflexivity|]. cbn. now rewrite IH. Qed.

Lemma store_length {A} : forall (l : list A) n x l', store l n x = Some l' -> length l' = length l.
Proof.
  induction l as [|y l IH]; intros [|n] x l' H; cbn in H; try discriminate; [now injection H as <-|].
  destruct (store l n x) as [r'|] eqn:E; [|discriminate]. injection H as <-. cbn. f_equal. eauto.
Qed.

Lemma store_some {A} : forall (l : list A) n x, n < length l -> exists l', store l n x = Some l'.
Proof.
  induction l as [|y l IH]; intros [|n] x H; cbn in *; try lia; [eauto|].
  destruct (IH n x ltac:(lia)) as [r' ->]. eauto.
Qed.

Lemma store_nth {A} : forall (l : list A) n x l', store l n x = Some l' ->
  forall m, nth_error l' m = if Nat.eqb m n then Some x else nth_error l m.
Proof.
  induction l as [|y l IH]; intros [|n] x l' H m; cbn in H; try discriminate; [injection H as <-; now destruct m|].
  destruct (store l n x) as [r'|] eqn:E; [|discriminate]. injection H as <-. destruct m as [|m]; [reflexivity|]. cbn. eauto.
Qed.

Lemma lookup_field_from_app fd r : forall pre i,
  (forall g, In g pre -> bytes_eqb (fd_name fd) (fd_name g) = false) ->
  lookup_field_from (pre ++ fd :: r) (fd_name fd) i = Some (i + length pre, fd).
Proof.
  induction pre as [|g pre IH]; intros i Hpre; cbn [app lookup_field_from length].
  - rewrite bytes_eqb_refl. do 2 f_equal. lia.
  - rewrite (Hpre g (or_introl eq_refl)), IH; [do 2 f_equal; lia|]. intros g' Hg'. apply Hpre. now right.
Qed.

Lemma lookup_from_bound : forall fds name i j fd,
  lookup_field_from fds name i = Some (j, fd) ->
  i <= j /\ nth_error fds (j - i) = Some fd /\ bytes_eqb name (fd_name fd) = true.
Proof.
  induction fds as [|g fds IH]; intros name i j fd H; cbn in H; [discriminate|].
  destruct (bytes_eqb name (fd_name g)) eqn:E.
  - injection H as <- <-. now rewrite Nat.sub_diag.
  - apply IH in H as (H1 & H2 & H3). replace (j - i) with (S (j - S i)) by lia. repeat split; auto. lia.
Qed.

Lemma list_index_from_app t k r : forall pre i,
  (forall l, In l pre -> ty_eqb t (fst l) = false) ->
  list_index_from (pre ++ (t, k) :: r) t i = Some (i + length pre).
Proof.
  induction pre as [|[t' k'] pre IH]; intros i Hpre; cbn [app list_index_from length].
  - rewrite ty_eqb_refl. f_equal. lia.
  - rewrite (Hpre (t', k') (or_introl eq_refl) : ty_eqb t t' = false), IH; [f_equal; lia|].
    intros l Hl. apply Hpre. now right.
Qed.

Lemma setval_roundtrip v : setval_rust v = true -> setval_of_json (setval_to_json v) = Ok v.
Proof.
  destruct v as [b|b|z|a|t l|t l]; cbn [setval_rust value_rust]; intros H; try discriminate;
    cbn [setval_to_json setval_of_json].
  - change (bytes_eqb n_B n_I) with false. change (bytes_eqb n_B n_B) with true. cbn iota.
    unfold nums. now rewrite (nums_roundtrip b H).
  - change (bytes_eqb n_I n_I) with true. cbn iota. now rewrite (int_json_roundtrip z H).
  - change (bytes_eqb n_Ip n_I) with false. change (bytes_eqb n_Ip n_B) with false.
    change (bytes_eqb n_Ip n_Ip) with true. cbn iota. now rewrite (ip_roundtrip a H).
Qed.

Lemma sets_roundtrip (sets : list (bytes * list value)) : forall m,
  Forall (fun s => forallb setval_rust (snd s) = true) sets -> ssorted (m ++ sets) ->
  sets_of_entries (map (fun s : bytes * list value => (fst s, JArr (map setval_to_json (snd s)))) sets) m
  = Ok (m ++ sets).
Proof.
  intros m H. revert m. induction H as [|[k vs] sets Hv _ IH]; intros m Hs; [cbn; now rewrite app_nil_r|].
  cbn [map sets_of_entries fst snd] in *. rewrite (all_ok_map setval_of_json setval_to_json vs).
  - rewrite (bt_insert_last k vs m (ssorted_app_lt m (k, vs) sets Hs)), IH; now rewrite <- app_assoc.
  - apply Forall_forall. intros v Hin. apply setval_roundtrip. exact (proj1 (forallb_forall _ _) Hv v Hin).
Qed.

Lemma matcher_roundtrip k m : matcher_rust k m = true -> matcher_of_json k (matcher_to_json m) = Ok m.
Proof.
  destruct k, m as [| |sets]; cbn [matcher_rust]; intros H; try discriminate; try reflexivity.
  apply andb_prop in H as [Ha Hv].
  cbn [matcher_to_json matcher_of_json setmatcher_of_entries]. change (bytes_eqb n_sets n_sets) with true. cbn iota.
  cbn [sets_of_json]. rewrite (sets_roundtrip sets []); [reflexivity| |now apply names_ascending_ssorted].
  apply Forall_forall, forallb_forall, Hv.
Qed.

Lemma ctx_entries_app sch a : forall b c,
  ctx_entries_of_json sch (a ++ b) c =
  match ctx_entries_of_json sch a c with
  | Done c' => ctx_entries_of_json sch b c'
  | Refused => Refused
  | Panicked => Panicked
  end.
Proof.
  induction a as [|[k x] a IH]; intros b c; [reflexivity|]. cbn [app ctx_entries_of_json].
  destruct (ctx_entry_of_json sch k x c); auto.
Qed.

Lemma names_ok_inv fds pre fd r :
  names_ok fds = true -> fds = pre ++ fd :: r ->
  bytes_eqb (fd_name fd) n_lists = false /\ (forall g, In g pre -> bytes_eqb (fd_name fd) (fd_name g) = false).
Proof.
  intros [Hd Hl%negb_true_iff]%andb_prop ->. rewrite map_app in *. split.
  - rewrite bytes_eqb_sym. destruct (bytes_eqb_spec n_lists (fd_name fd)) as [E|]; [|reflexivity].
    rewrite <- Hl. symmetry. apply existsb_In. rewrite E. apply in_elt.
  - intros g Hg. apply distinctb_NoDup, NoDup_remove_2 in Hd.
    destruct (bytes_eqb_spec (fd_name fd) (fd_name g)) as [E|]; [|reflexivity].
    destruct Hd. apply in_or_app. left. rewrite E. now apply in_map.
Qed.

Lemma fields_roundtrip sch : names_ok (sc_fields sch) = true ->
  forall fds vals pre vals_pre lists,
    sc_fields sch = pre ++ fds -> length vals_pre = length pre ->
    slots_typed fds vals = true ->
    forallb (fun o : option value => match o with Some v => value_rust v | None => true end) vals = true ->
    ctx_entries_of_json sch (field_entries fds vals)
      {| cx_vals := vals_pre ++ map (fun _ => None) fds; cx_lists := lists |}
    = Done {| cx_vals := vals_pre ++ vals; cx_lists := lists |}.
Proof.
  intros Hn. induction fds as [|fd fds IH]; intros [|o vals] pre vals_pre lists Hsch Hlen Ht Hr; try discriminate;
    [reflexivity|].
  apply andb_prop in Ht as [Ho Ht]. apply andb_prop in Hr as [Hov Hr].
  specialize (IH vals (pre ++ [fd]) (vals_pre ++ [o]) lists). rewrite <- !app_assoc, !app_length, Hlen in IH.
  specialize (IH Hsch eq_refl Ht Hr).
  destruct o as [v|]; cbn [field_entries map]; [|exact IH].
  cbn [ctx_entries_of_json]. unfold ctx_entry_of_json, lookup_field.
  destruct (names_ok_inv _ pre fd fds Hn Hsch) as [-> Hpre].
  rewrite Hsch, (lookup_field_from_app fd fds pre 0 Hpre), (value_roundtrip v (fd_ty fd) Ho Hov).
  apply has_type_inv in Ho as [-> _]. rewrite ty_eqb_refl. cbn [plus cx_vals cx_lists]. now rewrite <- Hlen, store_app.
Qed.

Lemma types_distinct_inv (ls pre : list (ty * list_kind)) t k r :
  types_distinct (map fst ls) = true -> ls = pre ++ (t, k) :: r ->
  forall l, In l pre -> ty_eqb t (fst l) = false.
Proof.
  intros H ->. induction pre as [|[t' k'] pre IH]; intros l Hl; [destruct Hl|].
  cbn in H. apply andb_prop in H as [H1%negb_true_iff H2]. destruct Hl as [<-|Hl]; [|now apply IH]. cbn [fst].
  destruct (ty_eqb t t') eqn:E; [|reflexivity]. apply ty_eqb_eq in E as <-. rewrite <- H1. symmetry.
  apply existsb_exists. exists t. split; [|apply ty_eqb_refl]. rewrite map_app. apply in_or_app. right. now left.
Qed.

Lemma lists_roundtrip sch : lists_ok (sc_lists sch) = true ->
  forall ls ms pre ms_pre,
    sc_lists sch = pre ++ ls -> length ms_pre = length pre -> matchers_rust ls ms = true ->
    list_entries_of_json sch (list_entries ls ms) (ms_pre ++ map (fun l => new_matcher (snd l)) ls)
    = Done (ms_pre ++ ms).
Proof.
  intros [Hd Hdep]%andb_prop. rewrite forallb_forall in Hdep.
  induction ls as [|[t k] ls IH]; intros [|m ms] pre ms_pre Hsch Hlen Hm; try discriminate; [reflexivity|].
  apply andb_prop in Hm as [Hm Hms].
  specialize (IH ms (pre ++ [(t, k)]) (ms_pre ++ [m])). rewrite <- !app_assoc, !app_length, Hlen in IH.
  specialize (IH Hsch eq_refl Hms).
  cbn [list_entries list_entries_of_json map snd]. unfold list_entry, list_entry_of_json, list_index.
  change (bytes_eqb n_type n_type) with true. change (bytes_eqb n_data n_data) with true. cbn iota.
  rewrite type_json_roundtrip by (apply Nat.leb_le, (Hdep (t, k)); rewrite Hsch; apply in_or_app; right; now left).
  rewrite Hsch, (list_index_from_app t k ls pre 0 (types_distinct_inv _ pre t k ls Hd Hsch)). cbn [plus].
  rewrite nth_error_app_new.
  now rewrite (matcher_roundtrip k m Hm), <- Hlen, store_app.
Qed.

Lemma matchers_rust_length : forall ls ms, matchers_rust ls ms = true -> length ms = length ls.
Proof.
  induction ls as [|l ls IH]; intros [|m ms] H; try discriminate; [reflexivity|].
  apply andb_prop in H as [_ H]. cbn. f_equal. auto.
Qed.

Theorem ctx_roundtrip sch c :
  scheme_ok sch = true -> ctx_typed sch c = true -> ctx_rust sch c = true ->
  ctx_decode sch (ctx_to_json sch c) = Done c.
Proof.
  intros [Hn Hl]%andb_prop [Ht _]%andb_prop [Hrv Hrm]%andb_prop.
  unfold ctx_decode, ctx_decode_into, ctx_to_json, fresh_ctx. rewrite ctx_entries_app.
  rewrite (fields_roundtrip sch Hn (sc_fields sch) (cx_vals c) [] [] _ eq_refl eq_refl Ht Hrv). cbn [app].
  pose proof (matchers_rust_length _ _ Hrm) as Hlen. destruct c as [vals [|m ms]]; cbn [cx_vals cx_lists] in *.
  - now destruct (sc_lists sch).
  - cbn [ctx_entries_of_json]. unfold ctx_entry_of_json. change (bytes_eqb n_lists n_lists) with true. cbn iota.
    cbn [lists_of_json cx_lists].
    now rewrite (lists_roundtrip sch Hl (sc_lists sch) (m :: ms) [] [] eq_refl eq_refl Hrm : list_entries_of_json _ _ (map _ _) = _).
Qed.

Lemma slots_ok_typed : forall fds vals, slots_ok fds vals = true -> slots_typed fds vals = true.
Proof.
  induction fds as [|fd fds IH]; intros [|o vals] H; try discriminate; [reflexivity|].
  cbn in *. apply andb_prop in H as [H1 H2]. rewrite (IH vals H2), andb_true_r. now destruct o.
Qed.

Lemma ctx_ok_typed sch c : ctx_ok sch c = true -> ctx_typed sch c = true.
Proof. unfold ctx_ok, ctx_typed. intros [H1 H2]%andb_prop. now rewrite (slots_ok_typed _ _ H1), H2. Qed.

Lemma slots_typed_length : forall fds vals, slots_typed fds vals = true -> length vals = length fds.
Proof.
  induction fds as [|fd fds IH]; intros [|o vals] H; try discriminate; [reflexivity|].
  apply andb_prop in H as [_ H]. cbn. f_equal. auto.
Qed.

Lemma slots_typed_store : forall fds vals i fd v vals',
  slots_typed fds vals = true -> nth_error fds i = Some fd -> has_type v (fd_ty fd) = true ->
  store vals i (Some v) = Some vals' -> slots_typed fds vals' = true.
Proof.
  induction fds as [|g fds IH]; intros [|o vals] [|i] fd v vals' Ht Hn Hv Hs; try discriminate;
    cbn in Ht, Hn, Hs; apply andb_prop in Ht as [Ho Ht].
  - injection Hn as ->. injection Hs as <-. cbn. now rewrite Hv, Ht.
  - destruct (store vals i (Some v)) as [r'|] eqn:E; [|discriminate]. injection Hs as <-.
    cbn. rewrite Ho. eauto.
Qed.

Lemma slots_typed_fresh fds : slots_typed fds (map (fun _ => None) fds) = true.
Proof. now induction fds. Qed.

(* one entry of a list section: the reader looks at the members one by one,
   the specification at the pair; the index found is in range, so nothing panics *)
Lemma list_entry_eq sch j ms : length ms = length (sc_lists sch) ->
  match spec_list_entry sch j with
  | Some (i, m) => exists ms', store ms i m = Some ms' /\ list_entry_of_json sch j ms = Done ms'
  | None => list_entry_of_json sch j ms = Refused
  end.
Proof.
  intros Hlen. unfold spec_list_entry, list_entry_of_json.
  destruct j as [| | | | |[|[k1 tj] rest]]; try reflexivity.
  destruct (bytes_eqb k1 n_type); [|destruct rest as [|[k2 dj] [|]]; reflexivity].
  destruct (type_of_json tj) as [t|];
    [|destruct rest as [|[k2 dj] [|]]; try reflexivity; cbn [andb]; now destruct (bytes_eqb k2 n_data)].
  destruct (list_index sch t) as [i|] eqn:Ei;
    [|destruct rest as [|[k2 dj] [|]]; try reflexivity; cbn [andb]; now destruct (bytes_eqb k2 n_data)].
  destruct rest as [|[k2 dj] rest']; [reflexivity|].
  destruct (bytes_eqb k2 n_data); [|now destruct rest']. cbn [andb]. apply list_index_bound in Ei.
  destruct (nth_error (sc_lists sch) i) as [[t' kind]|] eqn:En; [|apply nth_error_None in En; lia].
  destruct (matcher_of_json kind dj) as [m|]; [|now destruct rest'].
  destruct (store_some ms i m ltac:(lia)) as [ms' Es]. rewrite Es. destruct rest'; [|reflexivity]. cbn. now exists ms'.
Qed.

Fixpoint apply_ops {A} (ops : list (nat * A)) (l : list A) : option (list A) :=
  match ops with
  | [] => Some l
  | (i, a) :: r => match store l i a with Some l' => apply_ops r l' | None => None end
  end.

Lemma store_pick {A} (l : list A) i a l' n : store l i a = Some l' ->
  nth_error l' n = match pick n (i, a) with Some x => Some x | None => nth_error l n end.
Proof. intros H. rewrite (store_nth _ _ _ _ H). unfold pick. cbn. rewrite Nat.eqb_sym. now destruct (Nat.eqb i n). Qed.

Lemma apply_ops_nth {A} (ops : list (nat * A)) : forall l l', apply_ops ops l = Some l' ->
  length l' = length l /\
  forall n, nth_error l' n = match last_some (map (pick n) ops) with Some a => Some a | None => nth_error l n end.
Proof.
  induction ops as [|[i a] ops IH]; intros l l' H; cbn in H; [now injection H as <-|].
  destruct (store l i a) as [l1|] eqn:Es; [|discriminate]. destruct (IH l1 l' H) as [Hlen Hn].
  split; [now rewrite Hlen, (store_length _ _ _ _ Es)|]. intros n. rewrite Hn. cbn [map last_some].
  destruct (last_some (map (pick n) ops)); [reflexivity|]. exact (store_pick _ _ _ _ n Es).
Qed.

Lemma apply_ops_app {A} (a b : list (nat * A)) : forall l,
  apply_ops (a ++ b) l = match apply_ops a l with Some l' => apply_ops b l' | None => None end.
Proof. induction a as [|[i x] a IH]; intros l; [reflexivity|]. cbn. now destruct (store l i x). Qed.

Lemma list_entries_eq sch : forall l ms, length ms = length (sc_lists sch) ->
  match option_map_all (spec_list_entry sch) l with
  | Some ops => exists ms', apply_ops ops ms = Some ms' /\ list_entries_of_json sch l ms = Done ms'
  | None => list_entries_of_json sch l ms = Refused
  end.
Proof.
  induction l as [|x l IH]; intros ms Hlen; cbn [option_map_all list_entries_of_json]; [now exists ms|].
  pose proof (list_entry_eq sch x ms Hlen) as Hx. destruct (spec_list_entry sch x) as [[i m]|]; [|now rewrite Hx].
  destruct Hx as (ms1 & Es & ->). specialize (IH ms1). rewrite (store_length _ _ _ _ Es) in IH. specialize (IH Hlen).
  destruct (option_map_all (spec_list_entry sch) l) as [ops|]; [|exact IH]. cbn. now rewrite Es.
Qed.

Lemma field_member_inv sch kv n v :
  spec_field_member sch kv = Some (n, v) ->
  exists fd, nth_error (sc_fields sch) n = Some fd /\ fst kv = fd_name fd /\ value_of_json (fd_ty fd) (snd kv) = Ok v.
Proof.
  unfold spec_field_member. destruct (bytes_eqb (fst kv) n_lists); [discriminate|].
  destruct (lookup_field sch (fst kv)) as [[i fd]|] eqn:El; [|discriminate].
  destruct (value_of_json (fd_ty fd) (snd kv)) as [v'|] eqn:Ev; [|discriminate]. intros [= -> ->].
  apply lookup_from_bound in El as (_ & Hn & Hk). rewrite Nat.sub_0_r in Hn. exists fd. repeat split; [exact Hn|now apply bytes_eqb_eq|exact Ev].
Qed.

Lemma ctx_entry_eq sch k x c : ctx_typed sch c = true ->
  if bytes_eqb k n_lists then
    match spec_section sch x with
    | Some ops => exists ms', apply_ops ops (cx_lists c) = Some ms'
                              /\ ctx_entry_of_json sch k x c = Done {| cx_vals := cx_vals c; cx_lists := ms' |}
    | None => ctx_entry_of_json sch k x c = Refused
    end
  else
    match spec_field_member sch (k, x) with
    | Some (i, v) => exists vals', store (cx_vals c) i (Some v) = Some vals'
                                   /\ ctx_entry_of_json sch k x c = Done {| cx_vals := vals'; cx_lists := cx_lists c |}
    | None => ctx_entry_of_json sch k x c = Refused
    end.
Proof.
  intros [Hv Hl%Nat.eqb_eq]%andb_prop.
  unfold ctx_entry_of_json, spec_field_member. cbn [fst snd]. destruct (bytes_eqb k n_lists).
  - unfold spec_section, lists_of_json. destruct x as [| | | |l|]; try reflexivity.
    pose proof (list_entries_eq sch l (cx_lists c) Hl) as He.
    destruct (option_map_all (spec_list_entry sch) l) as [ops|]; [|now rewrite He].
    destruct He as (ms' & Ea & ->). now exists ms'.
  - destruct (lookup_field sch k) as [[i fd]|] eqn:El; [|reflexivity].
    destruct (value_of_json (fd_ty fd) x) as [v|] eqn:Ev; [|reflexivity]. cbn [result_opt option_map].
    rewrite (value_of_json_type_of _ _ _ Ev), ty_eqb_refl.
    (* the index found is in range *)
    apply lookup_from_bound in El as (_ & Hn & _). rewrite Nat.sub_0_r in Hn.
    destruct (store_some (cx_vals c) i (Some v)) as [vals' Es].
    { rewrite (slots_typed_length _ _ Hv). apply nth_error_Some. congruence. }
    rewrite Es. now exists vals'.
Qed.

(* a step that does not panic and keeps [I] *)
Definition safe_step {S} (I : S -> Prop) (o : outcome S) : Prop :=
  match o with Done s => I s | Refused => True | Panicked => False end.

Lemma ctx_entry_safe sch k x c : ctx_typed sch c = true ->
  safe_step (fun c' => ctx_typed sch c' = true) (ctx_entry_of_json sch k x c).
Proof.
  intros Ht. pose proof (ctx_entry_eq sch k x c Ht) as H. apply andb_prop in Ht as [Hv Hl].
  unfold ctx_typed. destruct (bytes_eqb k n_lists).
  - destruct (spec_section sch x) as [ops|]; [|now rewrite H]. destruct H as (ms' & Ea & ->). cbn.
    now rewrite Hv, (proj1 (apply_ops_nth _ _ _ Ea)).
  - destruct (spec_field_member sch (k, x)) as [[i v]|] eqn:E; [|now rewrite H]. destruct H as (vals' & Es & ->).
    destruct (field_member_inv _ _ _ _ E) as (fd & Hn & _ & Hx). cbn.
    now rewrite (slots_typed_store _ _ _ _ _ _ Hv Hn (value_of_json_typed _ _ _ Hx) Es).
Qed.

Lemma ctx_entries_safe sch : forall es c, ctx_typed sch c = true ->
  safe_step (fun c' => ctx_typed sch c' = true) (ctx_entries_of_json sch es c).
Proof.
  induction es as [|[k x] es IH]; intros c Ht; [exact Ht|]. cbn [ctx_entries_of_json].
  pose proof (ctx_entry_safe sch k x c Ht) as H. destruct (ctx_entry_of_json sch k x c); auto.
Qed.

Lemma fresh_ctx_typed sch : ctx_typed sch (fresh_ctx sch) = true.
Proof. unfold ctx_typed, fresh_ctx. cbn. now rewrite slots_typed_fresh, map_length, Nat.eqb_refl. Qed.

Theorem decode_into_safe sch c j : ctx_typed sch c = true ->
  match ctx_decode_into sch c j with
  | Done c' => ctx_typed sch c' = true
  | Refused => True
  | Panicked => False
  end.
Proof. intros Ht. destruct j; try exact I. now apply ctx_entries_safe. Qed.

Theorem decode_never_panics sch j : ctx_decode sch j <> Panicked.
Proof.
  unfold ctx_decode. intros E. pose proof (decode_into_safe sch (fresh_ctx sch) j (fresh_ctx_typed sch)) as H.
  now rewrite E in H.
Qed.

Theorem decode_type_safe sch j c : ctx_of_json sch j = Ok c -> ctx_typed sch c = true.
Proof.
  unfold ctx_of_json. pose proof (decode_into_safe sch (fresh_ctx sch) j (fresh_ctx_typed sch)) as H.
  fold (ctx_decode sch j) in H. destruct (ctx_decode sch j); now intros [= <-].
Qed.

(* the round trip, in the caller's terms *)
Theorem ctx_roundtrip_result sch c :
  scheme_ok sch = true -> ctx_typed sch c = true -> ctx_rust sch c = true ->
  ctx_of_json sch (ctx_to_json sch c) = Ok c.
Proof. intros Hs Ht Hr. unfold ctx_of_json. now rewrite (ctx_roundtrip sch c Hs Ht Hr). Qed.

Definition on_snd {A B} (f : A -> B) (kv : bytes * A) : bytes * B := (fst kv, f (snd kv)).

Lemma json_as_value_obj es :
  json_as_value (JObj es) = JObj (bt_of_list (map (on_snd json_as_value) es)).
Proof. cbn [json_as_value]. do 2 f_equal. apply map_ext. now intros [k v]. Qed.

Lemma all_ok_keywise {A B} (g : A -> result B) l kvs :
  all_ok (dec_member g) l = Ok kvs <-> Forall2 (keywise (fun x v => g x = Ok v)) l kvs.
Proof. rewrite all_ok_Ok_iff. split; induction 1; constructor; auto; now apply dec_member_Ok. Qed.

Lemma all_ok_sorted {A B} (g : A -> result B) l kvs :
  all_ok (dec_member g) l = Ok kvs -> all_ok (dec_member g) (bt_of_list l) = Ok (bt_of_list kvs).
Proof. rewrite !all_ok_keywise. intros H. apply (bt_add_keywise _ _ _ H). constructor. Qed.

Lemma all_ok_sorted_Err {A B} (g : A -> result B) l :
  NoDup (map fst l) -> all_ok (dec_member g) l = Err -> all_ok (dec_member g) (bt_of_list l) = Err.
Proof.
  rewrite !all_ok_Err_iff. intros Hnd (x & Hx & E). exists x. split; [now apply bt_of_list_In|exact E].
Qed.

Lemma bytes_as_value j : bytes_of_json (json_as_value j) = bytes_of_json j.
Proof.
  destruct j as [| | | |l|es]; try reflexivity. cbn [json_as_value bytes_of_json].
  apply all_ok_map_ext. now intros [].
Qed.

Theorem value_as_value : forall t j, no_dup_keys j = true -> value_of_json t (json_as_value j) = value_of_json t j.
Proof.
  induction t as [| | | |e IH|e IH]; intros j Hnd.
  - rewrite !value_of_json_bool. now destruct j.
  - now rewrite !value_of_json_bytes, bytes_as_value.
  - rewrite !value_of_json_int. now destruct j.
  - rewrite !value_of_json_ip. now destruct j.
  - destruct j as [| | | |l|es]; try reflexivity. cbn [json_as_value no_dup_keys] in *. rewrite forallb_forall in Hnd.
    rewrite !value_of_json_arr, (all_ok_map_ext _ (dec_elem e)); [reflexivity|]. intros x Hx. unfold dec_elem. now rewrite IH by auto.
  - assert (Hel : forall x, no_dup_keys x = true -> dec_elem e (json_as_value x) = dec_elem e x).
    { intros x Hx. unfold dec_elem. now rewrite IH. }
    destruct j as [| | | |ps|es]; try reflexivity.
    + cbn [json_as_value no_dup_keys] in *. rewrite forallb_forall in Hnd.
      rewrite !value_of_json_pairs, (all_ok_map_ext _ (dec_pair e)); [reflexivity|]. intros p Hp%Hnd.
      destruct p as [| | | |[|jk [|x [|]]]|]; try reflexivity. cbn [json_as_value map no_dup_keys forallb] in *.
      apply andb_prop in Hp as [_ [Hx _]%andb_prop]. unfold dec_pair, dec_member. cbn [fst snd]. now rewrite bytes_as_value, Hel.
    + cbn [no_dup_keys] in Hnd. apply andb_prop in Hnd as [Hd%distinctb_NoDup Hvs]. rewrite forallb_forall in Hvs.
      rewrite json_as_value_obj, !value_of_json_obj.
      assert (E : all_ok (dec_member (dec_elem e)) (map (on_snd json_as_value) es) = all_ok (dec_member (dec_elem e)) es).
      { apply all_ok_map_ext. intros [k x] Hin. unfold dec_member, on_snd. cbn [fst snd]. now rewrite (Hel x (Hvs _ Hin)). }
      destruct (all_ok (dec_member (dec_elem e)) es) as [kvs|].
      * rewrite (all_ok_sorted _ _ _ E), bt_of_list_sorted; [reflexivity|]. now apply bt_add_ssorted.
      * rewrite all_ok_sorted_Err; [reflexivity| |exact E]. now rewrite map_map.
Qed.

Lemma last_some_app {A} (a b : list (option A)) :
  last_some (a ++ b) = match last_some b with Some y => Some y | None => last_some a end.
Proof. induction a as [|x a IH]; cbn; [|rewrite IH]; now destruct (last_some b). Qed.

Lemma spec_field_member_lists sch k x : bytes_eqb k n_lists = true -> spec_field_member sch (k, x) = None.
Proof. intros H. unfold spec_field_member. cbn [fst]. now rewrite H. Qed.

Lemma ctx_entries_eq sch : forall es c, ctx_typed sch c = true ->
  if forallb (spec_member_ok sch) es then
    exists c', ctx_entries_of_json sch es c = Done c' /\
      (forall n, nth_error (cx_vals c') n =
                 match spec_field_at sch es n with Some v => Some (Some v) | None => nth_error (cx_vals c) n end) /\
      (forall n, nth_error (cx_lists c') n =
                 match last_some (map (pick n) (spec_all_entries sch es)) with
                 | Some m => Some m
                 | None => nth_error (cx_lists c) n
                 end)
  else ctx_entries_of_json sch es c = Refused.
Proof.
  induction es as [|[k x] es IH]; intros c Ht; [now exists c|].
  cbn [forallb ctx_entries_of_json]. unfold spec_member_ok at 1, spec_field_at, spec_all_entries. cbn [map flat_map fst snd].
  pose proof (ctx_entry_eq sch k x c Ht) as He. pose proof (ctx_entry_safe sch k x c Ht) as Hs.
  fold (spec_all_entries sch es).
  destruct (bytes_eqb k n_lists) eqn:Ek.
  - destruct (spec_section sch x) as [ops|]; [|now rewrite He].
    destruct He as (ms' & Ea & Ee). rewrite Ee in *. specialize (IH _ Hs). cbn [andb].
    destruct (forallb (spec_member_ok sch) es); [|exact IH].
    destruct IH as (c' & -> & Hv & Hl). exists c'. split; [reflexivity|]. split; intros n.
    + rewrite (Hv n), (spec_field_member_lists sch k x Ek). cbn [last_some].
      unfold spec_field_at. now destruct (last_some _).
    + rewrite (Hl n), map_app, last_some_app. destruct (last_some (map (pick n) (spec_all_entries sch es))); [reflexivity|].
      exact (proj2 (apply_ops_nth ops _ _ Ea) n).
  - destruct (spec_field_member sch (k, x)) as [[i v]|]; [|now rewrite He].
    destruct He as (vals' & Es & Ee). rewrite Ee in *. specialize (IH _ Hs). cbn [andb].
    destruct (forallb (spec_member_ok sch) es); [|exact IH].
    destruct IH as (c' & -> & Hv & Hl). exists c'. split; [reflexivity|]. split; intros n.
    + rewrite (Hv n). cbn [last_some]. unfold spec_field_at. destruct (last_some _); [reflexivity|].
      cbn [cx_vals]. rewrite (store_pick _ _ _ _ n Es). unfold pick. cbn. now destruct (Nat.eqb i n).
    + now rewrite (Hl n).
Qed.

Lemma spec_matchers_nth entries : forall ls i0 n,
  nth_error (spec_matchers entries ls i0) n =
  option_map (fun l => spec_matcher_at entries (i0 + n) (snd l)) (nth_error ls n).
Proof.
  induction ls as [|l ls IH]; intros i0 [|n]; cbn; try reflexivity; [now rewrite Nat.add_0_r|].
  now rewrite IH, Nat.add_succ_r.
Qed.

Lemma spec_matchers_length entries : forall ls i0, length (spec_matchers entries ls i0) = length ls.
Proof. induction ls as [|l ls IH]; intros i0; cbn; auto. Qed.

Theorem ctx_of_json_spec sch j : ctx_of_json sch j = spec_ctx_of_json sch j.
Proof.
  unfold ctx_of_json, ctx_decode, spec_ctx_of_json. destruct j as [| | | | |es]; try reflexivity.
  pose proof (ctx_entries_eq sch es (fresh_ctx sch) (fresh_ctx_typed sch)) as H.
  pose proof (decode_into_safe sch (fresh_ctx sch) (JObj es) (fresh_ctx_typed sch)) as Hs. cbn [ctx_decode_into] in *.
  destruct (forallb (spec_member_ok sch) es); [|now rewrite H].
  destruct H as ([vals ms] & Hc' & Hv & Hl). rewrite Hc' in *. apply andb_prop in Hs as [Hsv%slots_typed_length Hsl%Nat.eqb_eq].
  cbn [cx_vals cx_lists fresh_ctx] in *. do 2 f_equal.
  - apply nth_error_ext_len; [now rewrite map_length, seq_length|]. intros n Hn. rewrite Hsv in Hn.
    rewrite (Hv n), !nth_error_map, (nth_error_seq' _ 0 n Hn). cbn [plus option_map].
    destruct (spec_field_at sch es n); [reflexivity|]. apply nth_error_Some in Hn. now destruct (nth_error (sc_fields sch) n).
  - apply nth_error_ext_len; [now rewrite spec_matchers_length|]. intros n Hn.
    rewrite (Hl n), spec_matchers_nth, nth_error_map. unfold spec_matcher_at. cbn [plus].
    rewrite Hsl in Hn. apply nth_error_Some in Hn. destruct (nth_error (sc_lists sch) n); [|easy]. cbn.
    now destruct (last_some _).
Qed.

Lemma last_some_spec {A} (l : list (option A)) :
  match last_some l with Some a => In (Some a) l | None => forall a, ~ In (Some a) l end.
Proof.
  induction l as [|x l IH]; cbn; [easy|]. destruct (last_some l) as [y|]; [now right|].
  destruct x as [a|]; [now left|]. intros a [H|H]; [discriminate|now apply (IH a)].
Qed.

(* when at most one value is offered the order does not matter *)
Lemma last_some_same {A} (l1 l2 : list (option A)) :
  (forall a, In (Some a) l1 <-> In (Some a) l2) -> (forall a b, In (Some a) l2 -> In (Some b) l2 -> a = b) ->
  last_some l1 = last_some l2.
Proof.
  intros Hiff Huniq. pose proof (last_some_spec l1) as H1. pose proof (last_some_spec l2) as H2.
  destruct (last_some l1) as [a|], (last_some l2) as [b|]; try reflexivity.
  - f_equal. apply Huniq; [now apply Hiff|exact H2].
  - destruct (H2 a). now apply Hiff.
  - destruct (H1 b). now apply Hiff.
Qed.

Lemma NoDup_fst_inj {A} (l : list (bytes * A)) k v1 v2 :
  NoDup (map fst l) -> In (k, v1) l -> In (k, v2) l -> v1 = v2.
Proof.
  induction l as [|[k' v'] l IH]; intros Hnd H1 H2; [destruct H1|]. inversion Hnd as [|? ? Hk Hnd']; subst.
  destruct H1 as [E1|H1], H2 as [E2|H2]; [congruence| | |now apply IH].
  - injection E1 as -> ->. destruct Hk. exact (in_map fst _ _ H2).
  - injection E2 as -> ->. destruct Hk. exact (in_map fst _ _ H1).
Qed.

Lemma flat_map_nil {A B} (f : A -> list B) (l : list A) : (forall x, In x l -> f x = []) -> flat_map f l = [].
Proof.
  induction l as [|x l IH]; intros H; [reflexivity|]. cbn. rewrite (H x (or_introl eq_refl)). apply IH. intros y Hy. apply H. now right.
Qed.

Definition member_plain (kv : bytes * json) : bool :=
  no_dup_keys (snd kv) && (negb (bytes_eqb (fst kv) n_lists) || match snd kv with JArr [] => true | _ => false end).

Lemma plain_lists kv : member_plain kv = true -> bytes_eqb (fst kv) n_lists = true -> snd kv = JArr [].
Proof. intros [_ H]%andb_prop E. rewrite E in H. now destruct (snd kv) as [| | | |[|]|]. Qed.

Lemma spec_field_member_as_value sch kv :
  no_dup_keys (snd kv) = true -> spec_field_member sch (on_snd json_as_value kv) = spec_field_member sch kv.
Proof.
  intros H. unfold spec_field_member, on_snd. cbn [fst snd]. destruct (bytes_eqb (fst kv) n_lists); [reflexivity|].
  destruct (lookup_field sch (fst kv)) as [[i fd]|]; [|reflexivity]. now rewrite (value_as_value _ _ H).
Qed.

Lemma spec_member_ok_as_value sch kv :
  member_plain kv = true -> spec_member_ok sch (on_snd json_as_value kv) = spec_member_ok sch kv.
Proof.
  intros H. unfold spec_member_ok. rewrite (spec_field_member_as_value sch kv (proj1 (andb_prop _ _ H))).
  unfold on_snd. cbn [fst snd]. destruct (bytes_eqb (fst kv) n_lists) eqn:E; [|reflexivity]. now rewrite (plain_lists kv H E).
Qed.

Lemma plain_no_entries sch es :
  (forall kv, In kv es -> bytes_eqb (fst kv) n_lists = true -> snd kv = JArr []) -> spec_all_entries sch es = [].
Proof.
  intros H. apply flat_map_nil. intros kv Hin. destruct (bytes_eqb (fst kv) n_lists) eqn:E; [|reflexivity].
  now rewrite (H kv Hin E).
Qed.

Theorem spec_as_value sch es :
  distinctb (map fst es) = true -> forallb member_plain es = true ->
  spec_ctx_of_json sch (json_as_value (JObj es)) = spec_ctx_of_json sch (JObj es).
Proof.
  intros Hd%distinctb_NoDup Hp. rewrite forallb_forall in Hp.
  rewrite json_as_value_obj. set (es' := bt_of_list (map (on_snd json_as_value) es)).
  (* the tree has the same members *)
  assert (Hmem : forall kv', In kv' es' <-> exists kv, In kv es /\ kv' = on_snd json_as_value kv).
  { intros kv'. unfold es'. rewrite bt_of_list_In, in_map_iff by now rewrite map_map.
    split; intros (kv & H1 & H2); now exists kv. }
  assert (Hnd_of : forall kv, In kv es -> no_dup_keys (snd kv) = true).
  { intros kv H. exact (proj1 (andb_prop _ _ (Hp kv H))). }
  unfold spec_ctx_of_json.
  assert (Eok : forallb (spec_member_ok sch) es' = forallb (spec_member_ok sch) es).
  { apply eq_true_iff_eq. rewrite !forallb_forall. split.
    - intros H kv Hin. rewrite <- (spec_member_ok_as_value sch kv (Hp kv Hin)). apply H, Hmem. now exists kv.
    - intros H kv' (kv & Hkv & ->)%Hmem. rewrite (spec_member_ok_as_value sch kv (Hp kv Hkv)). now apply H. }
  rewrite Eok. destruct (forallb (spec_member_ok sch) es); [|reflexivity]. do 2 f_equal.
  - (* fields: a field has one name, and the name occurs once *)
    apply map_ext. intros n. unfold spec_field_at.
    set (f := fun kv : bytes * json => match spec_field_member sch kv with Some e => pick n e | None => None end).
    assert (Hf : forall kv, In kv es -> f (on_snd json_as_value kv) = f kv).
    { intros kv Hin. unfold f. now rewrite (spec_field_member_as_value sch kv (Hnd_of kv Hin)). }
    apply last_some_same.
    + intros a. rewrite !in_map_iff. split.
      * intros (kv' & <- & (kv & Hkv & ->)%Hmem). exists kv. split; [now rewrite Hf|exact Hkv].
      * intros (kv & <- & Hkv). exists (on_snd json_as_value kv). split; [now apply Hf|]. apply Hmem. now exists kv.
    + intros a b ([k1 x1] & F1 & H1)%in_map_iff ([k2 x2] & F2 & H2)%in_map_iff. unfold f in F1, F2.
      destruct (spec_field_member sch (k1, x1)) as [[i1 v1]|] eqn:E1; [|discriminate].
      destruct (spec_field_member sch (k2, x2)) as [[i2 v2]|] eqn:E2; [|discriminate].
      unfold pick in F1, F2. cbn [fst snd] in F1, F2.
      destruct (Nat.eqb_spec i1 n) as [->|]; [|discriminate]. destruct (Nat.eqb_spec i2 n) as [->|]; [|discriminate].
      destruct (field_member_inv _ _ _ _ E1) as (fd1 & Hn1 & Hk1 & _). destruct (field_member_inv _ _ _ _ E2) as (fd2 & Hn2 & Hk2 & _).
      cbn [fst] in Hk1, Hk2. assert (k1 = k2) as -> by congruence.
      rewrite (NoDup_fst_inj es _ _ _ Hd H1 H2) in E1. congruence.
  - (* no entry of a list section, on either side *)
    rewrite !plain_no_entries; [reflexivity| |].
    + intros kv Hin. exact (plain_lists kv (Hp kv Hin)).
    + intros kv' (kv & Hkv & ->)%Hmem E. unfold on_snd. cbn [snd]. now rewrite (plain_lists kv (Hp kv Hkv) E).
Qed.

(* documents the statement speaks about: no object repeats a key, no entry in
   a list section (C14_value_tree_refuses_list_entries is about those) *)
Definition doc_plain (j : json) : bool :=
  no_dup_keys j && no_list_entries j.

Theorem entry_point_independent sch j e :
  doc_plain j = true -> ctx_of_json sch (supply e j) = ctx_of_json sch j.
Proof.
  intros [Hnd Hnl]%andb_prop. destruct e; try reflexivity. cbn [supply]. rewrite !ctx_of_json_spec.
  destruct j as [| | | |l|es]; try reflexivity.
  cbn [no_dup_keys no_list_entries] in *. apply andb_prop in Hnd as [Hd Hvs].
  apply spec_as_value; [exact Hd|]. rewrite forallb_forall in *. intros [k x] Hin. unfold member_plain. cbn [fst snd].
  rewrite (Hvs (k, x) Hin). exact (Hnl (k, x) Hin).
Qed.

Lemma bytes_to_json_no_dup b : no_dup_keys (bytes_to_json b) = true.
Proof.
  unfold bytes_to_json, nums. destruct (utf8_valid b); [reflexivity|]. cbn. apply forallb_forall.
  now intros x (y & <- & _)%in_map_iff.
Qed.

Lemma value_to_json_no_dup : forall v, value_wf v = true -> no_dup_keys (value_to_json v) = true.
Proof.
  induction v as [b|b|z|a|t l IH|t l IH] using value_ind'; try reflexivity; cbn [value_wf value_to_json].
  - intros _. apply bytes_to_json_no_dup.
  - intros Hwf%(elems_wf (fun x => x)). cbn. apply forallb_forall. intros x (y & <- & Hy)%in_map_iff.
    rewrite Forall_forall in *. exact (IH y Hy (proj2 (has_type_inv _ _ (Hwf y Hy)))).
  - intros [Hwf%(elems_wf snd) Hasc%keys_ascending_ssorted%ssorted_NoDup]%andb_prop. rewrite Forall_forall in *.
    assert (Hv : forall kv, In kv l -> no_dup_keys (value_to_json (snd kv)) = true).
    { intros kv Hkv. exact (IH kv Hkv (proj2 (has_type_inv _ _ (Hwf kv Hkv)))). }
    destruct (forallb (fun kv : bytes * value => utf8_valid (fst kv)) l); cbn [no_dup_keys].
    + apply andb_true_intro. split; [apply distinctb_NoDup; now rewrite map_map|].
      apply forallb_forall. intros [k x] (kv & [= _ <-] & Hkv)%in_map_iff. now apply Hv.
    + apply forallb_forall. intros x (kv & <- & Hkv)%in_map_iff. cbn. now rewrite bytes_to_json_no_dup, (Hv kv Hkv).
Qed.

Lemma field_entries_names : forall fds vals k, In k (map fst (field_entries fds vals)) -> In k (map fd_name fds).
Proof.
  induction fds as [|fd fds IH]; intros [|[v|] vals] k H; cbn in *; try contradiction; [|now right; eauto].
  destruct H as [H|H]; [now left|right; eauto].
Qed.

Lemma field_entries_NoDup : forall fds vals, NoDup (map fd_name fds) -> NoDup (map fst (field_entries fds vals)).
Proof.
  induction fds as [|fd fds IH]; intros [|[v|] vals] H; cbn; try constructor; inversion H as [|? ? Hn Hr]; subst; auto.
  intros Hin. apply Hn. eapply field_entries_names, Hin.
Qed.

Lemma field_entries_plain : forall fds vals,
  negb (existsb (bytes_eqb n_lists) (map fd_name fds)) = true -> slots_typed fds vals = true ->
  forall kv, In kv (field_entries fds vals) -> member_plain kv = true.
Proof.
  induction fds as [|fd fds IH]; intros [|o vals] Hl Ht kv Hin; cbn in Hin; try contradiction.
  cbn [map existsb] in Hl. cbn [slots_typed] in Ht. apply negb_true_iff, orb_false_iff in Hl as [Hl1 Hl2]. apply andb_prop in Ht as [Ho Ht].
  assert (Hrest : forall kv, In kv (field_entries fds vals) -> member_plain kv = true).
  { apply IH; [now apply negb_true_iff|exact Ht]. }
  destruct o as [v|]; [|now apply Hrest]. destruct Hin as [<-|Hin]; [|now apply Hrest].
  unfold member_plain. cbn [fst snd]. apply has_type_inv in Ho as [_ Ho].
  now rewrite (value_to_json_no_dup v Ho), bytes_eqb_sym, Hl1.
Qed.

Theorem ctx_to_json_plain sch c :
  names_ok (sc_fields sch) = true -> ctx_typed sch c = true -> sc_lists sch = [] ->
  doc_plain (ctx_to_json sch c) = true.
Proof.
  intros [Hd Hnl]%andb_prop [Hv Hlen%Nat.eqb_eq]%andb_prop Hl.
  rewrite Hl in Hlen. destruct (cx_lists c) eqn:El; [|discriminate]. unfold ctx_to_json. rewrite El, app_nil_r.
  pose proof (field_entries_plain _ _ Hnl Hv) as Hp.
  unfold doc_plain. cbn [no_dup_keys no_list_entries]. rewrite !andb_true_iff, !forallb_forall. repeat split.
  - apply distinctb_NoDup, field_entries_NoDup. now apply distinctb_NoDup.
  - intros [k x] Hin. exact (proj1 (andb_prop _ _ (Hp _ Hin))).
  - intros kv Hin. exact (proj2 (andb_prop _ _ (Hp _ Hin))).
Qed.
