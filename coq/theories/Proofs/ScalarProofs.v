(* Scalar comparisons and chains of plain booleans: the operator tables, the
   comparer chosen for each operator against [cmp_holds], field reads in a
   well-formed context, the short-circuit and/or/xor chains as folds. *)
From Coq Require Import List ZArith Bool Lia.
From WF Require Import Base.Bytes Sem.Matchers Spec.C09 Lang.Types Lang.Ast Lang.Context Sem.Compile
     Spec.Denote Spec.Typing Proofs.ByteKeys Proofs.RangeSetProofs Proofs.C09Proofs.
Import ListNotations.

Lemma is_prefix_firstn p : forall h, is_prefix p h = bytes_eqb (firstn (length p) h) p.
Proof.
  induction p as [|x p IH]; intros h; cbn [is_prefix length firstn]; [reflexivity|].
  destruct h as [|y h]; cbn [firstn bytes_eqb]; [reflexivity|].
  rewrite IH, (N.eqb_sym x y). reflexivity.
Qed.

Lemma occurs_eq p : forall h, occurs p h = occurs_spec p h.
Proof.
  induction h as [|y h IH]; cbn [occurs occurs_spec]; rewrite is_prefix_firstn; [reflexivity|].
  now rewrite IH.
Qed.

Lemma int_op_spec o a z : int_op o a z = ord_holds o (Some (a ?= z)%Z).
Proof.
  destruct o; cbn [int_op ord_holds]; destruct (Z.compare_spec a z); cbn; lia.
Qed.

Lemma bytes_op_spec o a b : bytes_op o a b = ord_holds o (Some (bytes_compare a b)).
Proof. destruct o; cbn [bytes_op ord_holds]; destruct (bytes_compare a b); reflexivity. Qed.

Lemma ord_mask_spec o c : ord_matches o c = ord_holds o (Some c).
Proof. destruct o, c; reflexivity. Qed.

Lemma ip_op_spec o x a : ord_matches_opt o (ip_strict_cmp x a) = ord_holds o (ip_compare x a).
Proof.
  destruct x as [x|x], a as [a|a]; cbn [ip_strict_cmp ip_compare ord_matches_opt];
    try apply ord_mask_spec; destruct o; reflexivity.
Qed.

Lemma ip_item_wfb_ok it : ip_item_wfb it = true -> ip_item_wf it.
Proof.
  destruct it as [a b|a b|a n|a n]; cbn [ip_item_wfb ip_item_wf]; [trivial..| |];
    intros [[H1%Z.leb_le H2%Z.leb_le]%andb_prop H3%Z.eqb_eq]%andb_prop; auto.
Qed.

Lemma forallb_Forall {A} (f : A -> bool) l : forallb f l = true <-> Forall (fun x => f x = true) l.
Proof. now rewrite forallb_forall, Forall_forall. Qed.

Lemma forallb_ip_wf l : forallb ip_item_wfb l = true -> Forall ip_item_wf l.
Proof. intros H. apply forallb_Forall in H. eapply Forall_impl; [|exact H]. apply ip_item_wfb_ok. Qed.

Lemma list_index_from_bound l t : forall i li,
  list_index_from l t i = Some li -> (i <= li < i + length l)%nat.
Proof.
  induction l as [|[t' k] r IH]; intros i li H; cbn in H; [discriminate|].
  destruct (ty_eqb t t').
  - injection H as <-. cbn. lia.
  - apply IH in H. cbn. lia.
Qed.

Lemma list_index_bound sch t li : list_index sch t = Some li -> (li < length (sc_lists sch))%nat.
Proof. intros H. apply list_index_from_bound in H. lia. Qed.

Lemma has_type_inv v t : has_type v t = true -> type_of v = t /\ value_wf v = true.
Proof. unfold has_type. intros H. apply andb_true_iff in H. destruct H as [Ht Hw]. now apply ty_eqb_eq in Ht. Qed.

Lemma has_type_ty v t : has_type v t = true -> ty_eqb (type_of v) t = true.
Proof. intros H. now apply andb_true_iff in H. Qed.

Lemma has_type_of v : value_wf v = true -> has_type v (type_of v) = true.
Proof. intros H. unfold has_type. now rewrite ty_eqb_refl, H. Qed.

Lemma cmp_match_prim {A} t (op : cmpop) (X Y : A) :
  is_prim t = true ->
  match op, t with
  | CIsTrue, (TArray TBool | TMap TBool) => X
  | _, _ => Y
  end = Y.
Proof. destruct t; try discriminate; destruct op; reflexivity. Qed.

Section WithScheme.
Variable sch : scheme.

(* `in $list`: the matcher installed for the type is there *)
Lemma list_matcher_ok t li c :
  match list_index sch t with Some i => Nat.eqb i li | None => false end = true ->
  length (cx_lists c) = length (sc_lists sch) ->
  list_index sch t = Some li /\ exists m, nth_error (cx_lists c) li = Some m.
Proof.
  intros Hop Hl. destruct (list_index sch t) as [i|] eqn:Ei; [|discriminate]. apply Nat.eqb_eq in Hop. subst i.
  split; [reflexivity|]. apply list_index_bound in Ei. rewrite <- Hl in Ei.
  destruct (nth_error (cx_lists c) li) as [m|] eqn:Em; [eauto|]. apply nth_error_None in Em. lia.
Qed.

Lemma cmp_fn_spec t op v c :
  op_ok sch t op = true -> has_type v t = true ->
  length (cx_lists c) = length (sc_lists sch) ->
  exists b, fst (cmp_fn sch op) v c = Some b /\ cmp_holds sch op c v = Some b.
Proof.
  intros Hop Hv Hl. apply has_type_inv in Hv. destruct Hv as [<- _].
  destruct op as [|o r|z|p pf|pat raw|strict pat pf|l|l|l|li name], v; try discriminate Hop;
    try (destruct r; try discriminate Hop);
    cbn [cmp_fn fst cmp_holds cast_bool cast_int cast_bytes cast_ip type_of op_ok] in Hop |- *;
    rewrite ?int_op_spec, ?bytes_op_spec, ?ip_op_spec, ?occurs_eq, ?rangeset_contains_spec; eauto.
  (* in $list, for each of the three list types *)
  5-7: destruct (list_matcher_ok _ _ c Hop Hl) as (-> & m & ->); cbn; eauto.
  - (* matches *) destruct (regex_compile pat); [cbn; eauto|discriminate].
  - (* wildcard *) unfold wildcard_match. destruct (wparse pat); [cbn; eauto|discriminate].
  - (* ip in {..} *) apply forallb_ip_wf in Hop. exists (spec_in_ip l (Some a)). split; [|reflexivity].
    exact (oneof_ip_spec l (Some a) Hop).
  - (* bytes in {..} *) pose proof (oneof_bytes_spec (map fst l) (Some b)) as H. cbn in H. rewrite H. eauto.
Qed.

(* compile_with's default flag is the nil rule *)
Lemma cmp_fn_default op : snd (cmp_fn sch op) = nil_result sch op.
Proof.
  destruct op as [|o r|z|p pf|pat raw|strict pat pf|l|l|l|li name]; try reflexivity;
    try (destruct r, o; reflexivity); cbn [cmp_fn nil_result];
    try (destruct (regex_compile pat); reflexivity); try (destruct (wparse pat); reflexivity).
Qed.

Lemma slots_field fds : forall vals f fd,
  slots_ok fds vals = true -> nth_error fds f = Some fd ->
  exists o, nth_error vals f = Some o /\ slot_ok fd o = true.
Proof.
  induction fds as [|d fds IH]; intros vals f fd Hs Hf; [destruct f; discriminate|].
  destruct vals as [|o vals]; [discriminate|]. cbn in Hs. apply andb_true_iff in Hs. destruct Hs as [H1 H2].
  destruct f as [|f]; cbn in Hf |- *.
  - injection Hf as <-. eauto.
  - eauto.
Qed.

Lemma field_value_ok c f t :
  ctx_ok sch c = true -> field_ty sch f = Some t ->
  exists o, field_value sch f c = Some o /\ field_lookup f c = Some o /\
            match o with Some v => has_type v t = true | None => True end.
Proof.
  unfold ctx_ok, field_ty, field_value, field_lookup, field_optional. intros Hc Ht.
  apply andb_true_iff in Hc. destruct Hc as [Hs _].
  destruct (nth_error (sc_fields sch) f) as [fd|] eqn:Ef; [|discriminate]. cbn in Ht. injection Ht as <-.
  destruct (slots_field _ _ _ _ Hs Ef) as (o & Ho & Hok). rewrite Ho. cbn [option_map].
  destruct o as [v|]; cbn in Hok.
  - exists (Some v). auto.
  - rewrite Hok. exists None. auto.
Qed.

Lemma ctx_ok_lists c : ctx_ok sch c = true -> length (cx_lists c) = length (sc_lists sch).
Proof. unfold ctx_ok. intros H. apply andb_true_iff in H. destruct H as [_ H]. now apply Nat.eqb_eq in H. Qed.

Definition evals {X} (c : ctx) (fs : list (ctx -> M X)) (xs : list X) : Prop :=
  Forall2 (fun f x => f c = Some x) fs xs.

(* the short-circuit loops, entered with the value of the operands so far *)
Lemma run_and_spec c fs bs : evals c fs bs ->
  forall acc : bool, (if acc then run_and fs c else Some false) = Some (fold_left andb bs acc).
Proof.
  induction 1 as [|f b fs bs Hf _ IH]; intros [|]; cbn; rewrite ?Hf; try reflexivity; [apply IH|apply (IH false)].
Qed.

Lemma run_or_spec c fs bs : evals c fs bs ->
  forall acc : bool, (if acc then Some true else run_or fs c) = Some (fold_left orb bs acc).
Proof.
  induction 1 as [|f b fs bs Hf _ IH]; intros [|]; cbn; rewrite ?Hf; try reflexivity; [apply (IH true)|apply IH].
Qed.

Lemma run_xor_spec c fs bs : evals c fs bs -> forall acc, run_xor acc fs c = Some (fold_left xorb bs acc).
Proof. induction 1 as [|f b fs bs Hf _ IH]; intros acc; cbn; [reflexivity|]. now rewrite Hf, IH. Qed.

Lemma combine_one_spec op c first fs b0 bs :
  first c = Some b0 -> evals c fs bs ->
  combine_one op first fs c = Some (fold_left (lop_spec op) bs b0).
Proof.
  intros H0 H. destruct op; cbn [combine_one lop_spec]; rewrite H0;
    [now apply run_or_spec|now apply run_xor_spec|now apply run_and_spec].
Qed.

(* the denotation of a chain of operands of one shape (plain booleans under
   [ROne], boolean arrays under [RVec]) is the left fold of the shape's operation *)
Lemma denote_fold_same {X} (R : X -> lres) (g : X -> X -> X) op c l xs :
  (forall a b, combine_spec op (R a) (R b) = Some (R (g a b))) ->
  forall acc, Forall2 (fun e r => denote sch e c = Some r) (lexprs_to_list l) (map R xs) ->
  denote_fold sch op (R acc) l c = Some (R (fold_left g xs acc)).
Proof.
  intros Hg. revert xs. induction l as [|e r IH]; intros [|x xs] acc H; inversion H as [|? ? ? ? Hd Hrest]; subst.
  - reflexivity.
  - cbn [denote_fold fold_left]. rewrite Hd, Hg. apply IH. exact Hrest.
Qed.

Lemma all_one_map fs : all_one (map COne fs) = Some fs.
Proof. induction fs as [|f fs IH]; cbn; [reflexivity|]. now rewrite IH. Qed.

End WithScheme.
