(* Proofs for C20: the CString buffer (every operation sequence), the last-error
   protocol (every call history; refinement of Spec/C20.v), thread isolation (frame
   and interleaving independence), the panic status, and where the code as it
   stood before the repair of F8 ([coded = true]) leaves the protocol. *)
From Coq Require Import List NArith Bool Arith.
From WF Require Import Base.Bytes Sem.CString Sem.FfiProto Spec.C20.
Import ListNotations.
Local Open Scope N_scope.

Lemma spec_text_app : forall a b, spec_text (a ++ b) = spec_text a ++ spec_text b.
Proof. intros a b. unfold spec_text. apply map_app. Qed.

Lemma spec_text_no_nul : forall m, ~ In 0 (spec_text m).
Proof.
  induction m as [|a m IH]; simpl; intros H; [exact H|].
  destruct H as [H|H]; [|exact (IH H)].
  destruct (N.eqb_spec a 0) as [E|E]; [discriminate H|exact (E H)].
Qed.

Lemma spec_text_nil_iff : forall m, spec_text m = [] <-> m = [].
Proof. intros m. destruct m; simpl; split; intros H; try reflexivity; discriminate H. Qed.

Lemma cs_append_simpl : forall s buf,
  cs_append s buf = removelast s ++ spec_text buf ++ [0].
Proof.
  intros s buf. unfold cs_append, vec_pop.
  rewrite firstn_app, Nat.sub_diag, firstn_all, firstn_O, app_nil_r.
  rewrite skipn_app, Nat.sub_diag, skipn_all, skipn_O. cbn [app].
  rewrite <- app_assoc. reflexivity.
Qed.

Lemma cs_append_twice : forall s a b,
  cs_append (cs_append s a) b = cs_append s (a ++ b).
Proof.
  intros s a b. rewrite !cs_append_simpl, (app_assoc _ (spec_text a)), removelast_last, spec_text_app, <- !app_assoc.
  reflexivity.
Qed.

Lemma c_read_snoc : forall m, ~ In 0 m -> c_read (m ++ [0]) = Some m.
Proof.
  induction m as [|a m IH]; [reflexivity|]. intros [Ha Hn]%not_in_cons.
  apply not_eq_sym, N.eqb_neq in Ha. cbn [app c_read]. rewrite Ha, IH by exact Hn. reflexivity.
Qed.

Lemma cs_wf_snoc : forall m, ~ In 0 m -> cs_wf_nonempty (m ++ [0]) = true.
Proof.
  induction m as [|a m IH]; [reflexivity|]. intros [Ha Hn]%not_in_cons.
  apply not_eq_sym, N.eqb_neq in Ha. specialize (IH Hn).
  (* the tail is not empty, so the head is an interior byte *)
  destruct m; cbn [app cs_wf_nonempty] in *; rewrite Ha, IH; reflexivity.
Qed.

Lemma cs_view_snoc : forall m, ~ In 0 m -> cs_view (m ++ [0]) = VStr m.
Proof.
  intros m Hn. unfold cs_view.
  destruct (m ++ [0]) as [|x xs] eqn:E; [destruct m; discriminate E|].
  rewrite <- E, cs_wf_snoc by exact Hn. rewrite removelast_last. reflexivity.
Qed.

Lemma cs_as_c_str_snoc : forall m, cs_as_c_str (m ++ [0]) = Some (m ++ [0]).
Proof. intros m. destruct m; reflexivity. Qed.

(* The buffer that holds the pending text [acc]: empty, or the C string of its
   NUL-substituted bytes. *)
Definition buf_of (acc : option bytes) : cstring :=
  match acc with None => [] | Some m => spec_text m ++ [0] end.

Lemma cs_append_buf : forall acc b,
  cs_append (buf_of acc) b = buf_of (spec_pending acc [CsAppend b]).
Proof.
  intros [a|] b; rewrite cs_append_simpl; [|reflexivity].
  cbn [buf_of spec_pending]. rewrite removelast_last, spec_text_app, <- app_assoc. reflexivity.
Qed.

Lemma cs_run_buf : forall ops acc, cs_run (buf_of acc) ops = buf_of (spec_pending acc ops).
Proof.
  induction ops as [|[b|] ops IH]; intros acc; [reflexivity| |exact (IH None)].
  cbn [cs_run fold_left cs_step]. rewrite cs_append_buf. apply IH.
Qed.

Lemma cstring_inv : forall ops : list cs_op,
  match spec_pending None ops with
  | None => cs_run cs_new ops = [] /\ cs_as_c_str (cs_run cs_new ops) = None
  | Some m =>
      is_c_string (cs_run cs_new ops) (spec_text m) /\
      cs_as_c_str (cs_run cs_new ops) = Some (cs_run cs_new ops) /\
      c_read (cs_run cs_new ops) = Some (spec_text m) /\
      cs_view (cs_run cs_new ops) = VStr (spec_text m)
  end.
Proof.
  intros ops. change cs_new with (buf_of None). rewrite cs_run_buf.
  destruct (spec_pending None ops) as [m|]; cbn [buf_of].
  - repeat split.
    + apply spec_text_no_nul.
    + apply cs_as_c_str_snoc.
    + apply c_read_snoc, spec_text_no_nul.
    + apply cs_view_snoc, spec_text_no_nul.
  - split; reflexivity.
Qed.

Lemma cs_run_app : forall s a b, cs_run s (a ++ b) = cs_run (cs_run s a) b.
Proof. intros s a b. unfold cs_run. apply fold_left_app. Qed.

(* write!(buffer, ..): the fragments are concatenated; an empty text writes
   nothing.  [m] is what the buffer holds already. *)
Definition nonempty_text (m : bytes) : option bytes := match m with [] => None | _ => Some m end.

Lemma cs_write_fmt_gen : forall msg m,
  cs_write_fmt (buf_of (nonempty_text m)) msg = buf_of (nonempty_text (m ++ concat msg)).
Proof.
  induction msg as [|[|x b] msg IH]; intros m; cbn [concat].
  - rewrite app_nil_r. reflexivity.
  - apply IH.
  - rewrite app_assoc, <- IH. unfold cs_write_fmt. cbn [filter nonempty fold_left].
    rewrite cs_append_buf. destruct m; reflexivity.
Qed.

Lemma cs_write_fmt_new : forall msg,
  cs_write_fmt [] msg = match concat msg with [] => [] | m => spec_text m ++ [0] end.
Proof. intros msg. apply (eq_trans (cs_write_fmt_gen msg [])). destruct (concat msg); reflexivity. Qed.

Lemma write_last_error_text : forall st msg, concat msg <> [] ->
  t_err (write_last_error st msg) = spec_text (concat msg) ++ [0].
Proof.
  intros st msg Hm. cbn [write_last_error t_err cs_clear]. rewrite cs_write_fmt_new.
  destruct (concat msg); [contradiction|reflexivity].
Qed.

Lemma rel_view : forall st a, rel st a -> cs_view (t_err st) = view_of (a_err a).
Proof.
  intros st a [_ H]. destruct (a_err a) as [m|]; cbn [view_of].
  - destruct H as [E Hn]. rewrite E. apply cs_view_snoc. exact Hn.
  - rewrite H. reflexivity.
Qed.

Lemma write_rel : forall st a msg,
  t_enabled st = a_enabled a ->
  rel (write_last_error st msg) (mk_astate (spec_message msg) (a_enabled a)).
Proof.
  intros st a msg He. unfold rel, write_last_error, spec_message. cbn [t_enabled t_err a_enabled a_err cs_clear].
  split; [exact He|]. rewrite cs_write_fmt_new.
  destruct (concat msg) as [|x m]; [reflexivity|].
  split; [reflexivity|apply spec_text_no_nul].
Qed.

Lemma writes_intended : forall f site, writes false f site = true.
Proof. intros f site. destruct site; reflexivity. Qed.

Lemma step_refines : forall p st a c, rel st a ->
  let '(p1, st1, r) := step false p st c in
  exists a1, spec_step p a c = (p1, a1, r) /\ rel st1 a1.
Proof.
  intros p st a c Hrel. unfold step, spec_step.
  destruct (p_dead p); [exists a; split; [reflexivity|exact Hrel]|].
  destruct c as [f [|site msg|pre payload post]].
  - (* a success: get_last_error, clear_last_error, enable and disable act on the state *)
    destruct Hrel as [He Herr].
    destruct f; try (exists a; split; [reflexivity|split; assumption]).
    + exists a. split; [|split; assumption]. cbn [fst snd].
      destruct (a_err a) as [m|]; cbn [option_map].
      * destruct Herr as [E _]. rewrite E, cs_as_c_str_snoc. reflexivity.
      * rewrite Herr. reflexivity.
    + exists (mk_astate None (a_enabled a)). split; [reflexivity|]. split; [exact He|reflexivity].
    + exists (mk_astate (a_err a) true). split; [reflexivity|]. split; [reflexivity|exact Herr].
    + exists (mk_astate (a_err a) false). split; [reflexivity|]. split; [reflexivity|exact Herr].
  - rewrite writes_intended. exists (mk_astate (spec_message msg) (a_enabled a)).
    split; [reflexivity|]. apply write_rel. exact (proj1 Hrel).
  - rewrite (proj1 Hrel). destruct (catches f && a_enabled a).
    + exists (mk_astate (spec_panic_message (p_hook p) pre payload post) (a_enabled a)).
      split; [reflexivity|]. apply write_rel. exact (proj1 Hrel).
    + exists a. split; [reflexivity|exact Hrel].
Qed.

Lemma run_refines : forall h p st a, rel st a ->
  map abs_obs (fst (fst (run false p st h))) = fst (fst (spec_run p a h)) /\
  snd (fst (run false p st h)) = snd (fst (spec_run p a h)) /\
  rel (snd (run false p st h)) (snd (spec_run p a h)).
Proof.
  induction h as [|c h IH]; intros p st a Hrel.
  - cbn [run spec_run fst snd map]. split; [reflexivity|split; [reflexivity|exact Hrel]].
  - pose proof (step_refines p st a c Hrel) as Hs. cbn [run spec_run].
    destruct (step false p st c) as [[p1 st1] r]. destruct Hs as (a1 & -> & Hr1).
    specialize (IH p1 st1 a1 Hr1).
    destruct (run false p1 st1 h) as [[os p2] st2].
    destruct (spec_run p1 a1 h) as [[os' p2'] a2]. cbn [fst snd] in *.
    destruct IH as (<- & Hp & Hr). split; [|split; assumption].
    cbn [map]. unfold abs_obs at 1. cbn [fst snd]. rewrite (rel_view _ _ Hr1). reflexivity.
Qed.

Lemma failing_call_sets_message : forall p st f site msg,
  p_dead p = false -> concat msg <> [] ->
  exists st',
    step false p st (Call f (Failure site msg)) = (p, st', ret_failure f) /\
    t_enabled st' = t_enabled st /\
    is_c_string (t_err st') (spec_text (concat msg)) /\
    step false p st' (Call F_get_last_error Success)
      = (p, st', RErrPtr (Some (spec_text (concat msg) ++ [0]))) /\
    c_read (spec_text (concat msg) ++ [0]) = Some (spec_text (concat msg)).
Proof.
  intros p st f site msg Hd Hm.
  exists (write_last_error st msg).
  pose proof (write_last_error_text st msg Hm) as He.
  split; [unfold step; rewrite Hd, writes_intended; reflexivity|].
  split; [reflexivity|].
  split; [split; [exact He|apply spec_text_no_nul]|].
  split.
  - unfold step. rewrite Hd, He, cs_as_c_str_snoc. reflexivity.
  - apply c_read_snoc, spec_text_no_nul.
Qed.

Lemma succeeding_call_keeps_message : forall coded p st f,
  f <> F_clear_last_error ->
  t_err (snd (fst (step coded p st (Call f Success)))) = t_err st.
Proof.
  intros coded p st f Hf. unfold step. destruct (p_dead p); [reflexivity|].
  destruct f; try reflexivity. exfalso. apply Hf. reflexivity.
Qed.

Lemma clear_empties : forall coded p st, p_dead p = false ->
  exists st',
    step coded p st (Call F_clear_last_error Success) = (p, st', RUnit) /\
    t_err st' = [] /\
    step coded p st' (Call F_get_last_error Success) = (p, st', RErrPtr None).
Proof.
  intros coded p st Hd. unfold step. rewrite Hd. eexists. split; [reflexivity|]. split; reflexivity.
Qed.

Lemma gstep_frame : forall coded g c,
  g_b (fst (gstep coded g TA c)) = g_b g /\ g_a (fst (gstep coded g TB c)) = g_a g.
Proof.
  intros coded g c. unfold gstep. cbn [g_thread].
  destruct (step coded (g_p g) (g_a g) c) as [[p1 st1] r].
  destruct (step coded (g_p g) (g_b g) c) as [[p2 st2] r2]. split; reflexivity.
Qed.

Lemma step_dead : forall coded p st c, p_dead p = true -> step coded p st c = (p, st, RNotRun).
Proof. intros coded p st c H. unfold step. rewrite H. reflexivity. Qed.

(* The hook, once installed, stays; and with it installed a call that does not
   abort leaves the process state as it was. *)
Lemma step_hook_set : forall coded p st c, p_hook p = true ->
  let '(p1, _, _) := step coded p st c in p_hook p1 = true /\ (p_dead p1 = false -> p1 = p).
Proof.
  intros coded [hk dd] st c Hh. cbn in Hh. subst hk. unfold step. cbn [p_dead p_hook].
  destruct dd; [auto|]. destruct c as [f [|site msg|pre payload post]].
  - destruct f; auto.
  - auto.
  - destruct (catches f && t_enabled st); [auto|]. split; [reflexivity|discriminate].
Qed.

Lemma run_cons_obs : forall coded p st c h,
  fst (fst (run coded p st (c :: h))) =
  let '(p1, st1, r) := step coded p st c in (r, t_err st1) :: fst (fst (run coded p1 st1 h)).
Proof.
  intros coded p st c h. cbn [run]. destruct (step coded p st c) as [[p1 st1] r].
  destruct (run coded p1 st1 h) as [[os p2] st2]. reflexivity.
Qed.

(* Interleaving independence: with the hook installed and no abort, under every
   schedule that lets both threads finish, each thread observes exactly what it
   observes when it runs alone (and the process state is the one it started in,
   which is what the induction carries). *)
Lemma interleave_alone : forall sched coded g ha hb oa ob g',
  interleave coded sched g ha hb = (oa, ob, g', [], []) ->
  p_hook (g_p g) = true -> p_dead (g_p g') = false ->
  g_p g' = g_p g /\
  oa = fst (fst (run coded (g_p g) (g_a g) ha)) /\
  ob = fst (fst (run coded (g_p g) (g_b g) hb)).
Proof.
  induction sched as [|t sched IH]; intros coded g ha hb oa ob g' Hi Hh Hd.
  - cbn in Hi. injection Hi as <- <- <- -> ->. repeat split.
  - (* the thread that moves makes its call in the process state [g_p g]: the rest
       of the run leaves the process alive, so this call did, and then it left
       the process state as it was *)
    destruct t; cbn [interleave] in Hi.
    + destruct ha as [|c ha']; [exact (IH _ _ _ _ _ _ _ Hi Hh Hd)|].
      unfold gstep in Hi. cbn [g_thread] in Hi. rewrite run_cons_obs.
      pose proof (step_hook_set coded (g_p g) (g_a g) c Hh) as Hp1.
      destruct (step coded (g_p g) (g_a g) c) as [[p1 st1] r]. destruct Hp1 as [Hh1 Hsame].
      destruct (interleave coded sched (mk_gstate p1 st1 (g_b g)) ha' hb)
        as [[[[oa' ob'] g2] ra'] rb'] eqn:Ei.
      injection Hi as <- <- <- -> ->.
      destruct (IH _ _ _ _ _ _ _ Ei Hh1 Hd) as (Hp & -> & ->). cbn [fst g_p g_a g_b] in *.
      rewrite Hp in Hd. rewrite (Hsame Hd) in *. auto.
    + destruct hb as [|c hb']; [exact (IH _ _ _ _ _ _ _ Hi Hh Hd)|].
      unfold gstep in Hi. cbn [g_thread] in Hi. rewrite run_cons_obs.
      pose proof (step_hook_set coded (g_p g) (g_b g) c Hh) as Hp1.
      destruct (step coded (g_p g) (g_b g) c) as [[p1 st1] r]. destruct Hp1 as [Hh1 Hsame].
      destruct (interleave coded sched (mk_gstate p1 (g_a g) st1) ha hb')
        as [[[[oa' ob'] g2] ra'] rb'] eqn:Ei.
      injection Hi as <- <- <- -> ->.
      destruct (IH _ _ _ _ _ _ _ Ei Hh1 Hd) as (Hp & -> & ->). cbn [fst g_p g_a g_b] in *.
      rewrite Hp in Hd. rewrite (Hsame Hd) in *. auto.
Qed.

Lemma panic_status_spec : forall coded p st f pre payload post,
  p_dead p = false -> p_hook p = true -> t_enabled st = true ->
  f = F_parse_filter \/ f = F_compile_filter \/ f = F_match \/ f = F_filter_uses_list ->
  pre ++ payload ++ post <> [] ->
  exists st',
    step coded p st (Call f (Panicked pre payload post)) = (p, st', RStatus StPanic) /\
    t_enabled st' = true /\
    is_c_string (t_err st') (spec_text pre ++ spec_text payload ++ spec_text post).
Proof.
  intros coded p st f pre payload post Hd Hh He Hf Hne. unfold step. rewrite Hd, He, Hh.
  assert (Hc : catches f && true = true /\ panic_status f = StPanic).
  { destruct Hf as [->|[->|[->| ->]]]; split; reflexivity. }
  destruct Hc as [-> ->]. eexists. split; [reflexivity|]. split; [exact He|].
  cbn [panic_text]. rewrite write_last_error_text; cbn [concat]; rewrite app_nil_r; [|exact Hne].
  rewrite <- !spec_text_app. split; [reflexivity|apply spec_text_no_nul].
Qed.

(* a panic that nothing catches reaches the extern "C" boundary *)
Lemma panic_uncaught_aborts : forall coded p st f pre payload post,
  p_dead p = false -> catches f = false \/ t_enabled st = false ->
  step coded p st (Call f (Panicked pre payload post)) = (mk_pstate (p_hook p) true, st, RAbort).
Proof.
  intros coded p st f pre payload post Hd H. unfold step. rewrite Hd.
  destruct H as [H|H]; rewrite H; [reflexivity|]. rewrite andb_false_r. reflexivity.
Qed.

(* The calls at which the code before the repair of F8 left the protocol: an
   engine failure in a wrapper that ended in `.is_ok()`. *)
Definition f8_call (c : call) : bool :=
  match c with
  | Call f (Failure AtEngine _) => is_ok_fn f
  | _ => false
  end.

Lemma step_coded_eq : forall p st c, f8_call c = false -> step true p st c = step false p st c.
Proof.
  intros p st c H. unfold step. destruct (p_dead p); [reflexivity|].
  destruct c as [f o]. destruct o as [|site msg|pre payload post]; try reflexivity.
  destruct site; [reflexivity|]. cbn [f8_call] in H. unfold writes. rewrite H. reflexivity.
Qed.

Lemma run_coded_eq : forall h p st, forallb (fun c => negb (f8_call c)) h = true ->
  run true p st h = run false p st h.
Proof.
  induction h as [|c h IH]; intros p st H; [reflexivity|].
  cbn [forallb] in H. apply andb_true_iff in H. destruct H as [Hc Hh].
  apply negb_true_iff in Hc. cbn [run]. rewrite (step_coded_eq p st c Hc).
  destruct (step false p st c) as [[p1 st1] r]. rewrite (IH p1 st1 Hh). reflexivity.
Qed.

Lemma coded_is_ok_failure_keeps_message : forall p st f msg,
  p_dead p = false -> is_ok_fn f = true ->
  step true p st (Call f (Failure AtEngine msg)) = (p, st, RBool false).
Proof.
  intros p st f msg Hd Hf. unfold step. rewrite Hd. unfold writes. rewrite Hf. cbn [andb negb].
  destruct f; try discriminate Hf; reflexivity.
Qed.
