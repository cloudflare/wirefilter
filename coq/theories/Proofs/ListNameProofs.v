(* C17, whole-parser part: every `in $name` node of every filter the parser
   model accepts carries a permitted list name.  The only place a name enters
   an AST is the `in $` branch of lex_with_lhs, through lex_list_name
   (characterised in Proofs/ListProofs.v); the rest is Proofs/ParserInd.v. *)
From Coq Require Import List.
From WF Require Import Lang.Ast
     Parse.Lex Parse.Parser Spec.C17 Proofs.ListProofs Proofs.ParserInd.
Import ListNotations.

Lemma names_ok_args_of_list l : names_ok_args (args_of_list l) = forallb names_ok_arg l.
Proof. induction l as [|x l IH]; cbn; [reflexivity|]. now rewrite IH. Qed.

Lemma names_ok_lexprs_of_list l : names_ok_lexprs (lexprs_of_list l) = forallb names_ok_lexpr l.
Proof. induction l as [|x l IH]; cbn; [reflexivity|]. now rewrite IH. Qed.

Lemma names_ok_combine lhs op rhs :
  names_ok_lexpr lhs = true -> names_ok_lexpr rhs = true -> names_ok_lexpr (combine lhs op rhs) = true.
Proof.
  intros Hl Hr. destruct (ParserCases.combine_cases lhs op rhs) as [->|(o & items & -> & ->)].
  { cbn. now rewrite Hl, Hr. }
  cbn [names_ok_lexpr] in *. rewrite names_ok_lexprs_of_list, forallb_app, <- names_ok_lexprs_of_list, TypingProofs.lexprs_of_to_list, Hl. cbn. now rewrite Hr.
Qed.

Lemma list_name_permitted i name rest : lex_list_name i = LOk name rest -> permitted_name name = true.
Proof. intros H. apply lex_list_name_accepts in H. destruct H as (s & _ & _ & H). exact H. Qed.

Lemma names_closed sch w :
  closed sch w (fun e => names_ok_lexpr e = true) (fun e => names_ok_iexpr e = true) (fun a => names_ok_arg a = true).
Proof.
  constructor; cbn; auto.
  - intros lhs op -> Ho. destruct op; auto. destruct Ho as (i & r & H). exact (list_name_permitted _ _ _ H).
  - intros lhs op rhs. apply names_ok_combine.
  - intros fn l idx H. rewrite names_ok_args_of_list. apply forallb_forall. now apply Forall_forall.
Qed.

Theorem parsed_names_permitted sch st text e rest :
  parse_filter sch st text = LOk e rest -> names_ok_lexpr e = true.
Proof. exact (parse_filter_ind sch st text _ _ _ e rest (names_closed sch _)). Qed.
