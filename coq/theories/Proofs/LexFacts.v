(* One pass over each character-level lexer of Parse/Lex.v establishes [ldone]: the
   lexer never panics, every rest / error span it returns lies inside its input
   ([lpost], hence [lex_facts], of Proofs/ParserProofs.v), it runs out of fuel only
   if its loop is started with too little (Proofs/LexSafeProofs.v reads off that part),
   and what it leaves when it accepts is shorter than its input.
   CIDR literals come out well-formed. *)
From Coq Require Import List ZArith Bool Lia.
From WF Require Import Base.Bytes Lang.Ast Spec.Typing Parse.Lex
     Proofs.ParserProofs Proofs.LexBase Proofs.LexIntProofs Proofs.LexBytesProofs Proofs.LexMiscProofs.
Import ListNotations.
Local Notation length := List.length (only parsing).
Local Open Scope N_scope.

Definition T {A} : A -> Prop := fun _ => True.

Lemma lpost_T {A} i (P : A -> Prop) r : lpost i P r -> lpost i T r.
Proof. intros H. eapply lpost_weaken; [exact H|apply suffix_refl|]. intros; exact I. Qed.

Lemma suffix_app p x : suffix x (p ++ x).
Proof. now exists p. Qed.

(* [lpost]; an answer other than LFuel when [ok] holds (for a loop [ok] says that the fuel exceeds
   the length of what is left to read, elsewhere it is True); and an accepted answer leaves fewer
   than [n] bytes: every lexer consumes something when it accepts *)
Definition ldone {A} (ok : Prop) (n : nat) (w : bytes) (P : A -> Prop) (r : lres A) : Prop :=
  lpost w P r /\ (ok -> r <> LFuel) /\ forall a rest, r = LOk a rest -> (length rest < n)%nat.

Lemma ldone_safe {A} {ok : Prop} {n w} {P : A -> Prop} {r} : ldone ok n w P r -> ok -> safe r.
Proof. intros (Hp & Hf & _) Hok. split; [intros ->; exact Hp|auto]. Qed.

Lemma ldone_shorter {A} {ok : Prop} {n w} {P : A -> Prop} {r a rest} :
  ldone ok n w P r -> r = LOk a rest -> (length rest < n)%nat.
Proof. intros (_ & _ & Hn). apply Hn. Qed.

Lemma ldone_ok {A} ok n w (P : A -> Prop) a rest :
  P a -> suffix rest w -> (length rest < n)%nat -> ldone ok n w P (LOk a rest).
Proof. intros Ha Hs Hn. repeat split; [assumption..|discriminate|now intros ? ? [= _ <-]]. Qed.

Lemma ldone_err {A} ok n w (P : A -> Prop) k at_ m :
  suffix at_ w -> (m <= length at_)%nat -> ldone ok n w P (LErr k at_ m).
Proof. repeat split; [assumption..|discriminate|discriminate]. Qed.

Lemma ldone_out {A} (ok : Prop) n w (P : A -> Prop) : ~ ok -> ldone ok n w P LFuel.
Proof. intros H. repeat split; [contradiction|discriminate]. Qed.

Lemma ldone_fuel {A} (ok ok' : Prop) n n' w (P : A -> Prop) r :
  ldone ok n w P r -> (ok' -> ok) -> (n <= n')%nat -> ldone ok' n' w P r.
Proof. intros (Hp & Hf & Hn) Hok Hle. repeat split; [exact Hp|auto|]. intros a rest E. specialize (Hn a rest E). lia. Qed.

Lemma ldone_sub {A} (ok : Prop) n n' i w (P : A -> Prop) r :
  ldone True n i P r -> suffix i w -> (n <= n')%nat -> ldone ok n' w P r.
Proof.
  intros (Hp & Hf & Hn) Hs Hle. repeat split; [eapply lpost_sub; eauto|auto|].
  intros a rest E. specialize (Hn a rest E). lia.
Qed.

Lemma ldone_bind {A B} ok n m w (P : A -> Prop) (Q : B -> Prop) r k :
  ldone ok n w P r ->
  (forall a rest, P a -> suffix rest w -> (length rest < n)%nat -> ldone ok m w Q (k a rest)) ->
  ldone ok m w Q (lbind r k).
Proof.
  intros (Hp & Hf & Hn) Hk. destruct r as [a rest|k0 at_ j| |]; cbn [lbind].
  - destruct Hp as [Ha Hs]. apply Hk; [exact Ha|exact Hs|exact (Hn _ _ eq_refl)].
  - destruct Hp. now apply ldone_err.
  - destruct Hp.
  - apply ldone_out. intros Hok. now elim (Hf Hok).
Qed.

Lemma ldone_map {A B} ok n w (P : A -> Prop) (Q : B -> Prop) (f : A -> B) r :
  ldone ok n w P r -> (forall a, P a -> Q (f a)) -> ldone ok n w Q (lmap f r).
Proof. intros H HPQ. eapply ldone_bind; [exact H|]. intros a rest Ha Hs Hn. apply ldone_ok; auto. Qed.

Lemma take_while_done f i : ldone True (length i) i (fun t => (length t <= length i)%nat) (take_while f i).
Proof.
  unfold take_while. destruct (take_while_go f i) as [[|b t] rest] eqn:E.
  - apply ldone_err; [apply suffix_refl|lia].
  - apply take_while_go_split in E as ->.
    apply ldone_ok; [|apply suffix_app|]; rewrite app_length; cbn [length]; lia.
Qed.

Lemma take_done n i : ldone True (S (length i) - n) i (fun t => (length t <= length i)%nat) (take n i).
Proof.
  unfold take. destruct (take_chars n i) as [[t rest]|] eqn:E.
  - apply take_chars_split in E as [-> Hl]. apply ldone_ok; [rewrite app_length; lia|apply suffix_app|lia].
  - apply ldone_err; [apply suffix_refl|lia].
Qed.

(* every branch of lex_int: the digits of [x], then parse_number with its error span *)
Lemma lex_number_done w x at_ (sel : bytes -> bytes -> bytes) radix :
  suffix x w -> suffix at_ w ->
  (forall ds rest, (length ds <= length x)%nat -> (length (sel ds rest) <= length at_)%nat) ->
  ldone True (length w) w T (lbind (lex_digits x) (fun ds rest => parse_number at_ (sel ds rest) rest radix)).
Proof.
  intros Hx Ha Hsel.
  eapply ldone_bind; [eapply ldone_sub; [apply take_while_done|exact Hx|exact (suffix_length _ _ Hx)]|].
  intros ds rest Hds Hr Hl. unfold parse_number. destruct (i64_from_str_radix _ _).
  - now apply ldone_ok.
  - apply ldone_err; auto.
Qed.

Lemma lex_int_done i : ldone True (length i) i T (lex_int i).
Proof.
  assert (Hdec : forall x, suffix x i -> ldone True (length i) i T
            (lbind (lex_digits x) (fun _ rest => parse_number i (firstn (span_len i rest) i) rest 10))).
  { intros x Hx. apply lex_number_done; [exact Hx|apply suffix_refl|]. intros. rewrite firstn_length. lia. }
  destruct i as [|c s]; [apply Hdec, suffix_refl|].
  destruct (N.eq_dec c 48) as [->|Hc].
  - unfold lex_int. destruct (starts_with _ _) as [after|] eqn:E.
    + apply starts_with_suffix in E. now apply lex_number_done.
    + now apply lex_number_done; [apply suffix_refl..|].
  - rewrite lex_int_not_zero by assumption. apply Hdec.
    destruct (starts_with _ _) eqn:E; [eapply starts_with_suffix; eauto|apply suffix_refl].
Qed.

Lemma lex_int_range_done i : ldone True (length i) i T (lex_int_range i).
Proof.
  unfold lex_int_range. eapply ldone_bind; [apply lex_int_done|].
  intros first rest1 _ Hr1 Hl1. destruct (starts_with [46; 46] rest1) as [after|] eqn:E; [|now apply ldone_ok].
  apply starts_with_suffix in E. pose proof (suffix_length _ _ E).
  eapply ldone_bind; [eapply ldone_sub; [apply lex_int_done|eapply suffix_trans; eauto|apply Nat.le_refl]|].
  intros last rest2 _ Hr2 Hl2. destruct (last <? first)%Z.
  - apply ldone_err; [apply suffix_refl|apply span_len_le].
  - apply ldone_ok; [exact I|exact Hr2|lia].
Qed.

Lemma fixed_byte_done n radix i : ldone True (S (length i) - n) i T (fixed_byte n radix i).
Proof.
  unfold fixed_byte. eapply ldone_bind; [apply take_done|]. intros ds rest Hds Hr Hl.
  destruct (u8_from_digits ds radix); [now apply ldone_ok|apply ldone_err; [apply suffix_refl|exact Hds]].
Qed.

Lemma quoted_go_done w full fuel : forall s acc,
  suffix full w -> suffix s w -> ldone (length s < fuel)%nat (length s) w T (quoted_go fuel full s acc).
Proof.
  induction fuel as [|f IH]; intros s acc Hf Hs; [apply ldone_out; lia|].
  destruct (quoted_go_step f full s acc) as [->|k a n -> Ha Hn|r -> ->|r acc' -> Hr Hl _].
  - now apply ldone_err.
  - apply ldone_err; [exact (suffix_trans _ _ _ Ha Hs)|exact Hn].
  - apply ldone_ok; [exact I|exact (suffix_trans _ _ _ (suffix_cons _ _) Hs)|cbn [length]; lia].
  - eapply ldone_fuel; [apply IH; [exact Hf|exact (suffix_trans _ _ _ Hr Hs)]|lia|lia].
Qed.

Lemma lex_quoted_done w i : suffix i w -> ldone True (length i) w T (lex_quoted_string_as_vec i).
Proof. intros H. eapply ldone_fuel; [apply quoted_go_done; exact H|lia|lia]. Qed.

Lemma lex_byte_sep_done i : ldone True (length i) i T (lex_byte_sep i).
Proof.
  destruct i as [|b r]; [apply ldone_err; [apply suffix_refl|cbn; lia]|]. rewrite lex_byte_sep_eq.
  destruct (_ || _).
  - apply ldone_ok; [exact I|apply suffix_cons|cbn [length]; lia].
  - apply ldone_err; [apply suffix_refl|rewrite firstn_length; lia].
Qed.

Lemma byte_string_go_done w fuel : forall s acc,
  suffix s w -> ldone (length s < fuel)%nat (length s) w T (byte_string_go fuel s acc).
Proof.
  induction fuel as [|f IH]; intros s acc Hs; [apply ldone_out; lia|]. cbn [byte_string_go].
  eapply ldone_bind; [eapply ldone_sub; [apply (fixed_byte_done 2 16%Z)|exact Hs|apply Nat.le_refl]|].
  intros b rest _ Hr Hl.
  destruct (lex_byte_sep_done rest) as (Hp & _ & Hn).
  destruct (lex_byte_sep rest) as [u rest'|k a m| |]; try (apply ldone_ok; [exact I|exact Hr|lia]).
  destruct Hp as [_ Hp]. specialize (Hn _ _ eq_refl).
  eapply ldone_fuel; [apply IH; eapply suffix_trans; eauto|lia|lia].
Qed.

Lemma lex_byte_string_done i : ldone True (length i) i T (lex_byte_string i).
Proof.
  unfold lex_byte_string. eapply ldone_bind; [apply (fixed_byte_done 2 16%Z)|].
  intros b rest _ Hr Hl. eapply ldone_bind; [eapply ldone_sub; [apply lex_byte_sep_done|exact Hr|apply Nat.le_refl]|].
  intros _ rest' _ Hr' Hl'. pose proof (suffix_length _ _ Hr').
  eapply ldone_fuel; [apply byte_string_go_done; exact Hr'|lia|lia].
Qed.

Lemma raw_go_suffix fuel n : forall s body b rest, raw_go fuel n s body = Some (b, rest) -> suffix rest s.
Proof.
  induction fuel as [|f IH]; intros s body b rest H; [discriminate|].
  destruct (next_char s) as [[c r]|] eqn:E; [|cbn [raw_go] in H; rewrite E in H; discriminate].
  pose proof (next_char_suffix _ _ _ E) as Hr.
  destruct (list_eq_dec N.eq_dec c [34]) as [->|Hc].
  - apply next_char_shorter in E as [_ ->]. cbn [app] in *. rewrite raw_go_quote in H.
    destruct (Nat.leb n (count_hashes r)).
    + injection H as <- <-. eapply suffix_trans; [apply suffix_skipn|exact Hr].
    + apply IH in H. eapply suffix_trans; [exact H|]. eapply suffix_trans; [apply suffix_skipn|exact Hr].
  - rewrite (raw_go_step _ _ _ _ _ _ E Hc) in H. eapply suffix_trans; [eapply IH; exact H|exact Hr].
Qed.

Lemma lex_raw_done i : ldone True (length i) i T (lex_raw_string_as_str i).
Proof.
  unfold lex_raw_string_as_str. destruct (Nat.ltb 255 (count_hashes i)); [apply ldone_err; [apply suffix_refl|lia]|].
  pose proof (suffix_skipn (count_hashes i) i) as Hsk.
  destruct (skipn (count_hashes i) i) as [|b after] eqn:E; [now apply ldone_err|].
  assert (Herr : ldone True (length i) i (@T (bytes * N)) (LErr EExpectedName (b :: after) (length (b :: after))))
    by now apply ldone_err.
  destruct (N.eq_dec b 34) as [->|N34]; [|other_byte b Herr].
  destruct (raw_go (S (length after)) (count_hashes i) after []) as [[body rest]|] eqn:Er.
  - apply raw_go_suffix in Er. pose proof (suffix_length _ _ Er). pose proof (suffix_length _ _ Hsk).
    apply ldone_ok; [exact I| |cbn [length] in *; lia].
    eapply suffix_trans; [exact Er|]. eapply suffix_trans; [apply suffix_cons|exact Hsk].
  - apply ldone_err; [apply suffix_refl|lia].
Qed.

Lemma lex_quoted_or_raw_done i : ldone True (length i) i T (lex_quoted_or_raw_string i).
Proof.
  unfold lex_quoted_or_raw_string. destruct i as [|b r]; [apply ldone_err; [apply suffix_refl|lia]|].
  assert (Herr : ldone True (length (b :: r)) (b :: r) (@T (bytes * bytes_format)) (LErr EExpectedName (b :: r) (length (b :: r))))
    by (apply ldone_err; [apply suffix_refl|lia]).
  destruct (N.eq_dec b 34) as [->|N34].
  { eapply ldone_map; [eapply ldone_fuel; [apply lex_quoted_done, suffix_cons|auto|cbn [length]; lia]|]. intros; exact I. }
  destruct (N.eq_dec b 114) as [->|N114].
  { eapply ldone_map; [eapply ldone_sub; [apply lex_raw_done|apply suffix_cons|cbn [length]; lia]|]. intros; exact I. }
  other_byte b Herr.
Qed.

Lemma lex_bytes_done i : ldone True (length i) i T (lex_bytes i).
Proof.
  destruct i as [|b r]; [apply ldone_err; [apply suffix_refl|cbn; lia]|].
  destruct (N.eq_dec b 34) as [->|N34]; [apply lex_quoted_or_raw_done|].
  destruct (N.eq_dec b 114) as [->|N114]; [apply lex_quoted_or_raw_done|].
  rewrite lex_bytes_other by assumption. eapply ldone_map; [apply lex_byte_string_done|]. intros; exact I.
Qed.

Lemma lex_list_name_done i : ldone True (length i) i T (lex_list_name i).
Proof.
  unfold lex_list_name. destruct (starts_with [36] i) as [after|] eqn:E; [|apply ldone_err; [apply suffix_refl|lia]].
  apply starts_with_single in E as ->.
  destruct (take_while_go is_listname_char after) as [name rest] eqn:Et. apply take_while_go_split in Et as ->.
  destruct name as [|x name']; [apply ldone_err; [apply suffix_cons|lia]|].
  destruct (_ || _); [apply ldone_err; [apply suffix_cons|lia]|].
  apply ldone_ok; [exact I|apply (suffix_app (36 :: x :: name'))|cbn [length]; rewrite app_length; lia].
Qed.

Lemma ident_go_done w fuel : forall s, suffix s w -> ldone (length s < fuel)%nat (length s) w T (ident_go fuel s).
Proof.
  induction fuel as [|f IH]; intros s Hs; [apply ldone_out; lia|]. cbn [ident_go].
  destruct (take_while_go is_ident_char s) as [seg rest] eqn:Et. apply take_while_go_split in Et.
  destruct seg as [|x seg']; [now apply ldone_err|].
  assert (Hr : suffix rest w) by (eapply suffix_trans; [|exact Hs]; rewrite Et; apply suffix_app).
  assert (Hl : (length rest < length s)%nat) by (rewrite Et, app_length; cbn [length]; lia).
  assert (Hok : ldone (length s < S f)%nat (length s) w (@T unit) (LOk tt rest)) by now apply ldone_ok.
  destruct rest as [|b rest']; [exact Hok|].
  destruct (N.eq_dec b 46) as [->|N46]; [|other_byte b Hok].
  cbn [length] in Hl. eapply ldone_fuel; [apply IH; eapply suffix_trans; [apply suffix_cons|exact Hr]|lia|lia].
Qed.

Lemma lex_ident_name_done i : ldone True (length i) i (fun n => (length n <= length i)%nat) (lex_ident_name i).
Proof.
  unfold lex_ident_name. eapply ldone_bind; [eapply ldone_fuel; [apply ident_go_done, suffix_refl|lia|apply Nat.le_refl]|].
  intros _ rest _ Hr Hl. apply ldone_ok; [rewrite firstn_length; lia|exact Hr|exact Hl].
Qed.

Lemma lex_ip_done i : ldone True (length i) i T (lex_ip i).
Proof.
  unfold lex_ip, match_addr_or_cidr. eapply ldone_bind; [apply take_while_done|]. intros chunk rest Hc Hr Hl.
  destruct (parse_addr chunk); [now apply ldone_ok|apply ldone_err; [apply suffix_refl|exact Hc]].
Qed.

Lemma digits_val_nonneg radix s acc v : (0 < radix)%Z -> (0 <= acc)%Z -> digits_val radix s acc = Some v -> (0 <= v)%Z.
Proof.
  intros Hr Ha H. pose proof (digits_val_bound radix Hr s acc v Ha H).
  pose proof (Z.pow_nonneg radix (Z.of_nat (length s))). nia.
Qed.

Lemma parse_prefix_len_nonneg s n : parse_prefix_len s = Some n -> (0 <= n)%Z.
Proof.
  unfold parse_prefix_len. destruct s as [|b r]; [discriminate|].
  destruct (forallb is_digit (b :: r)); [|discriminate].
  destruct (digits_val 10 (b :: r) 0%Z) as [v|] eqn:E; [|discriminate].
  destruct (v <? 256)%Z; [|discriminate]. intros H. injection H as <-.
  eapply digits_val_nonneg; [| |exact E]; lia.
Qed.

Lemma parse_cidr_wf chunk it : parse_cidr chunk = inl it -> ip_item_wfb it = true.
Proof.
  unfold parse_cidr. destruct (rfind_byte 47 chunk 0 None) as [i|].
  - destruct (parse_loose_ip (firstn i chunk)) as [a|]; [|discriminate].
    destruct (parse_prefix_len (skipn (S i) chunk)) as [n|] eqn:En; [|discriminate].
    apply parse_prefix_len_nonneg in En.
    destruct a as [v|v].
    + destruct (Z.ltb_spec 32 n); [discriminate|]. destruct (_ =? 0)%Z eqn:Em; [|discriminate].
      intros [= <-]. cbn [ip_item_wfb]. rewrite Em. lia.
    + destruct (Z.ltb_spec 128 n); [discriminate|]. destruct (_ =? 0)%Z eqn:Em; [|discriminate].
      intros [= <-]. cbn [ip_item_wfb]. rewrite Em. lia.
  - destruct (parse_loose_ip chunk) as [[v|v]|]; [| |discriminate]; intros [= <-]; cbn [ip_item_wfb];
      rewrite Z.sub_diag; cbn; now rewrite Z.mod_1_r.
Qed.

Lemma find_sub_le p : forall s i j, find_sub p s i = Some j -> (j <= i + length s)%nat.
Proof.
  induction s as [|b r IH]; intros i j H; cbn [find_sub] in H.
  - destruct (starts_with p []); [|discriminate]. injection H as <-. lia.
  - destruct (starts_with p (b :: r)).
    + injection H as <-. lia.
    + apply IH in H. cbn [length]. lia.
Qed.

Lemma skipn_app_suffix {A} n (a b : list A) : (n <= length a)%nat -> skipn n (a ++ b) = skipn n a ++ b.
Proof. intros H. rewrite skipn_app. replace (n - length a)%nat with 0%nat by lia. reflexivity. Qed.

Lemma lex_ip_range_done i : ldone True (length i) i (fun x => ip_item_wfb x = true) (lex_ip_range i).
Proof.
  unfold lex_ip_range, match_addr_or_cidr. eapply ldone_bind; [apply take_while_done|]. intros chunk rest Hc Hr Hl.
  cbn beta in Hc.
  assert (Herr : forall at_ n, suffix at_ i -> (n <= length at_)%nat ->
            ldone True (length i) i (fun x => ip_item_wfb x = true) (LErr EParseNetwork at_ n)) by (intros; now apply ldone_err).
  assert (Hfull : ldone True (length i) i (fun x => ip_item_wfb x = true) (LErr EIncompatibleRangeBounds i (length chunk)))
    by (apply ldone_err; [apply suffix_refl|exact Hc]).
  destruct (find_sub [46; 46] chunk 0) as [j|] eqn:Ef.
  - apply find_sub_le in Ef. cbn in Ef.
    destruct (parse_addr (firstn j chunk)) as [first|]; [|apply Herr; [apply suffix_refl|lia]].
    destruct (parse_addr (skipn (j + 2) chunk)) as [last|];
      [|apply Herr; [apply suffix_skipn|rewrite !skipn_length; lia]].
    destruct first as [a|a], last as [b|b]; try exact Hfull; (destruct (a <=? b)%Z; [now apply ldone_ok|exact Hfull]).
  - destruct (parse_cidr chunk) as [it|e] eqn:Ec; [apply ldone_ok; [eapply parse_cidr_wf; eauto|exact Hr|exact Hl]|].
    assert (Hsp : (match find_sub [47%N] chunk 0 with Some x => x | None => length chunk end <= length chunk)%nat).
    { destruct (find_sub [47%N] chunk 0) eqn:E7; [apply find_sub_le in E7; cbn in E7; lia|lia]. }
    destruct e; try (apply Herr; [apply suffix_refl|lia]).
    apply Herr; [apply suffix_skipn|rewrite skipn_length; lia].
Qed.

Lemma lex_field_index_done i : ldone True (length i) i T (lex_field_index i).
Proof.
  assert (Herr : ldone True (length i) i (@T raw_index) (LErr EExpectedLiteral i (length i)))
    by (apply ldone_err; [apply suffix_refl|lia]).
  destruct i as [|c s]; [exact Herr|].
  destruct (N.eq_dec c 42) as [->|H42]; [rewrite lfi_each; apply ldone_ok; [exact I|apply suffix_cons|cbn [length]; lia]|].
  destruct (N.eq_dec c 34) as [->|H34].
  - rewrite lfi_key. eapply ldone_bind; [apply lex_bytes_done|]. intros [x fmt] rest _ Hr Hl.
    destruct (utf8_valid x); [now apply ldone_ok|exact Herr].
  - rewrite lfi_int by assumption. destruct (lex_int_done (c :: s)) as (Hp & Hf & Hn).
    destruct (lex_int (c :: s)) as [v rest|k a n| |]; [|exact Herr|destruct Hp|now elim Hf].
    destruct (_ && _); [apply ldone_ok; [exact I|apply Hp|exact (Hn _ _ eq_refl)]|exact Herr].
Qed.

Lemma lex_field_index_post i : lpost i T (lex_field_index i).
Proof. apply lex_field_index_done. Qed.

(* [lpost] is the first component of [ldone] *)
Theorem lexers_ok : lex_facts.
Proof.
  constructor.
  - apply lex_int_done.
  - apply lex_bytes_done.
  - apply lex_ip_done.
  - apply lex_int_range_done.
  - apply lex_ip_range_done.
  - apply lex_list_name_done.
  - apply lex_ident_name_done.
  - apply lex_field_index_done.
  - apply lex_raw_done.
  - apply lex_quoted_or_raw_done.
Qed.

Lemma lex_ident_name_prefix i name rest : lex_ident_name i = LOk name rest -> i = name ++ rest.
Proof.
  intros H. pose proof (lpost_ok_suffix _ _ _ _ _ (proj1 (lex_ident_name_done i)) H) as [p Hp].
  unfold lex_ident_name in H. apply lbind_ok in H. destruct H as ([] & rest0 & _ & H). injection H as <- <-.
  subst i. now rewrite firstn_span.
Qed.
