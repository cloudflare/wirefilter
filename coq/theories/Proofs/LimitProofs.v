(* C13, exactness: the configured nesting limit acts on parsing ONLY as a
   filter on the nesting depth of the result.  For two parser settings that
   differ in nothing but max_nesting_depth: whatever one of them accepts, with
   a result whose nesting is within the other's limit, the other accepts too,
   with the same AST.  One induction on the fuel over the eight parser
   functions that call one another ([LIM]); lex_with_lhs calls none of them
   and reads of the settings only the star limit ([with_lhs_st]).  The only
   place where a nesting error could be swallowed is the literal fall-back of
   FunctionCallArgExpr::lex_with, taken when the first characters of the
   argument do not look like an identifier; the scheme condition [fn_names_ok]
   (every function name looks like an identifier to that test within its first
   three characters) excludes it. *)
From Coq Require Import List NArith Bool Lia.
From WF Require Import Base.Bytes Lang.Types Lang.Ast Sem.Compile Spec.C13 Parse.Lex Parse.Parser
     Proofs.ParserProofs Proofs.LexFacts Proofs.ByteKeys.
Import ListNotations.
Local Notation length := List.length (only parsing).
Local Open Scope N_scope.

(* the identifier test of FunctionCallArgExpr::lex_with on the first three characters *)
Definition prop3 (c1 c2 c3 : option N) : bool :=
  one_ascii c1 c_is_field
  || (one_ascii c1 c_is_field_or_int && one_ascii c2 c_is_field)
  || (one_ascii c1 c_is_field_or_int && one_ascii c2 c_is_field_or_int && one_ascii c3 c_is_field).
Definition arg_propagates (input : bytes) : bool :=
  let '(c1, c2, c3) := first_chars input in prop3 c1 c2 c3.

Definition fn_names_ok (sch : scheme) : Prop :=
  forall n d rest, In (n, d) (sc_functions sch) -> arg_propagates (n ++ rest) = true.

(* sufficient, checkable criteria: a character that can only belong to an identifier
   (a letter outside a-f / A-F, or `_`) among the first three characters of the name,
   preceded by letters, digits or `_` *)
Definition name_ok1 (n : bytes) : bool :=
  match n with b1 :: _ => is_ascii b1 && c_is_field b1 | _ => false end.
Definition name_ok2 (n : bytes) : bool :=
  match n with
  | b1 :: b2 :: _ => is_ascii b1 && c_is_field_or_int b1 && (is_ascii b2 && c_is_field b2)
  | _ => false
  end.
Definition name_ok3 (n : bytes) : bool :=
  match n with
  | b1 :: b2 :: b3 :: _ =>
      is_ascii b1 && c_is_field_or_int b1 && (is_ascii b2 && c_is_field_or_int b2) && (is_ascii b3 && c_is_field b3)
  | _ => false
  end.

Lemma first_chars_ascii b s : is_ascii b = true ->
  first_chars (b :: s) = let '(c1, c2, _) := first_chars s in (Some b, c1, c2).
Proof.
  intros H. unfold first_chars. rewrite (LexBase.next_char_ascii b s) by (apply N.ltb_lt, H).
  destruct (next_char s) as [[c2 r2]|]; [|reflexivity]. destruct (next_char r2) as [[c3 r3]|]; [|reflexivity].
  now destruct (next_char r3) as [[]|].
Qed.

Lemma name_ok_propagates n rest : name_ok1 n || name_ok2 n || name_ok3 n = true -> arg_propagates (n ++ rest) = true.
Proof.
  unfold arg_propagates, prop3. intros H. apply orb_true_iff in H. destruct H as [H|H]; [apply orb_true_iff in H; destruct H as [H|H]|].
  - destruct n as [|b1 n1]; [discriminate|]. apply andb_true_iff in H. destruct H as [A1 F1].
    cbn [app]. rewrite (first_chars_ascii _ _ A1). destruct (first_chars (n1 ++ rest)) as [[c2 c3] ?].
    cbn [one_ascii]. now rewrite A1, F1.
  - destruct n as [|b1 [|b2 n2]]; try discriminate. cbn [name_ok2] in H.
    apply andb_true_iff in H. destruct H as [H1 H2]. pose proof H1 as [A1 _]%andb_true_iff. pose proof H2 as [A2 _]%andb_true_iff.
    cbn [app]. rewrite (first_chars_ascii _ _ A1), (first_chars_ascii _ _ A2).
    destruct (first_chars (n2 ++ rest)) as [[c3 ?] ?]. cbn [one_ascii]. rewrite H1, H2. now rewrite orb_true_r.
  - destruct n as [|b1 [|b2 [|b3 n3]]]; try discriminate. cbn [name_ok3] in H.
    apply andb_true_iff in H. destruct H as [H H3]. apply andb_true_iff in H. destruct H as [H1 H2].
    pose proof H1 as [A1 _]%andb_true_iff. pose proof H2 as [A2 _]%andb_true_iff. pose proof H3 as [A3 _]%andb_true_iff.
    cbn [app]. rewrite (first_chars_ascii _ _ A1), (first_chars_ascii _ _ A2), (first_chars_ascii _ _ A3).
    destruct (first_chars (n3 ++ rest)) as [[? ?] ?]. cbn [one_ascii]. rewrite H1, H2, H3. now rewrite !orb_true_r.
Qed.

Lemma fn_names_ok_of_test sch :
  forallb (fun p : bytes * fn_def => name_ok1 (fst p) || name_ok2 (fst p) || name_ok3 (fst p)) (sc_functions sch) = true ->
  fn_names_ok sch.
Proof.
  intros H n d rest Hin. rewrite forallb_forall in H. apply name_ok_propagates. exact (H (n, d) Hin).
Qed.

Lemma lbind_ext {A B} (r : lres A) (k1 k2 : A -> bytes -> lres B) :
  (forall a rest, k1 a rest = k2 a rest) -> lbind r k1 = lbind r k2.
Proof. intros H. destruct r; cbn; auto. Qed.

Lemma lex_indexes_st sch st1 st2 fuel : forall input t acc,
  lex_indexes sch st1 fuel input t acc = lex_indexes sch st2 fuel input t acc.
Proof.
  induction fuel as [|f IH]; intros input t acc; [reflexivity|]. cbn [lex_indexes].
  destruct (starts_with [91] input); [|reflexivity].
  apply lbind_ext. intros idx rest1. apply lbind_ext. intros [] rest2.
  destruct (index_step t idx); [apply IH|reflexivity].
Qed.

Lemma with_lhs_st sch st1 st2 f d1 d2 input lhs :
  st_star_limit st1 = st_star_limit st2 ->
  lex_with_lhs sch st1 f d1 input lhs = lex_with_lhs sch st2 f d2 input lhs.
Proof.
  intros H. destruct f as [|f]; [reflexivity|]. rewrite !lex_with_lhs_S.
  assert (E : forall lt, cmp_rhs sch st1 lhs lt input = cmp_rhs sch st2 lhs lt input)
    by (intros lt; unfold cmp_rhs, lex_wildcard; now rewrite H).
  now destruct (ty_iexpr sch lhs) as [[| | | |[]|[]]|].
Qed.

(* the result of the chain loops contains their left operand *)
Lemma chain_depth sch st f :
  (forall d lhs minp la e r, lex_more sch st f d lhs minp la = LOk e r -> (depth_lexpr lhs <= depth_lexpr e)%nat) /\
  (forall d rhs rest op p r, lex_inner sch st f d rhs rest op = LOk p r -> (depth_lexpr rhs <= depth_lexpr (fst p))%nat).
Proof.
  induction f as [|f [IHm IHi]]; [split; intros; discriminate|]. split.
  - intros d lhs minp [o lrest] e r H. cbn [lex_more fst snd] in H. destruct o as [op|]; [|now injection H as <- _].
    apply lbind_ok in H. destruct H as (rhs & rhs_rest & Hs & H).
    destruct (lex_inner sch st f d rhs rhs_rest op) as [[rhs' la'] rr'|k a n| |] eqn:Ei; try discriminate.
    destruct (ty_lexpr sch lhs); [|discriminate]. destruct (ty_lexpr sch rhs'); [|discriminate].
    destruct (types_combinable _ _); [|discriminate].
    apply IHm in H. rewrite depth_combine in H. lia.
  - intros d rhs rest op p r H. cbn [lex_inner] in H. cbv zeta in H.
    destruct (Nat.leb _ _); [injection H as <- _; cbn; lia|].
    destruct (lex_more sch st f d rhs (fst (lex_combining_op rest)) (lex_combining_op rest)) as [rhs' rest'|k a n| |] eqn:Em;
      try discriminate.
    apply IHm in Em. apply IHi in H. lia.
Qed.

Section Limit.
Variable sch : scheme.
Variables st1 st2 : settings.
Hypothesis Hstar : st_star_limit st1 = st_star_limit st2.
Hypothesis Hnames : fn_names_ok sch.
Local Notation M2 := (N.to_nat (st_max_depth st2)).

Lemma index_st_indep f d input :
  arg_propagates input = false -> lex_index_expr sch st1 f d input = lex_index_expr sch st2 f d input.
Proof.
  intros Hp. destruct f as [|f]; [reflexivity|]. cbn [lex_index_expr].
  destruct (lex_ident_name input) as [name rest0|k a n| |] eqn:En; try reflexivity.
  destruct (scheme_get sch name) as [[i|i]|] eqn:Eg; try reflexivity.
  - destruct (field_ty sch i); [|reflexivity]. now rewrite (lex_indexes_st sch st1 st2).
  - exfalso. unfold scheme_get in Eg. destruct (find_field name (sc_fields sch) 0); [discriminate|].
    destruct (find_fn name (sc_functions sch) 0) as [j|] eqn:Ef; [|discriminate].
    destruct (find_fn_some _ _ _ _ Ef) as (_ & n' & d' & Hin & He). apply nth_error_In in Hin.
    apply bytes_eqb_eq in He. subst n'.
    apply lex_ident_name_prefix in En. subst input.
    rewrite (Hnames name d' rest0 Hin) in Hp. discriminate.
Qed.

Lemma call_args_extends f : forall d input def acc l r,
  lex_call_args sch st1 f d input def acc = LOk l r -> exists more, l = acc ++ more.
Proof.
  induction f as [|f IH]; intros d input def acc l r H; [discriminate H|].
  destruct (lex_call_args_S input) as [E|E]; rewrite E in H.
  - unfold call_args_finish in H. destruct (Nat.ltb _ _); [discriminate H|].
    apply lbind_ok in H. destruct H as (? & ? & _ & H). injection H as <- _. exists []. now rewrite app_nil_r.
  - unfold call_args_next in H. apply lbind_ok in H. destruct H as ([] & input1 & _ & H).
    destruct (lex_arg sch st1 f d (skip_space input1)) as [a rest|k aa n| |]; try discriminate H.
    apply call_args_push_ok in H. destruct H as (_ & t & _ & _ & H).
    apply IH in H. destruct H as (more & ->). exists (a :: more). now rewrite <- app_assoc.
Qed.

Lemma depth_args_in l a : In a l -> (depth_arg a <= depth_args (args_of_list l))%nat.
Proof.
  induction l as [|x l IH]; intros H; [destruct H|]. cbn [args_of_list depth_args].
  destruct H as [->|H]; [lia|]. specialize (IH H). lia.
Qed.

(* [H : lbind r k = LOk e rest'] becomes [Hx : r = LOk x rest] and [H : k x rest = LOk e rest'] *)
Tactic Notation "lb" hyp(H) ident(x) ident(rest) ident(Hx) :=
  apply lbind_ok in H; destruct H as (x & rest & Hx & H).

Record LIM (f : nat) : Prop := {
  lim_logical : forall d i e r, lex_logical sch st1 f d i = LOk e r ->
      (N.to_nat d + depth_lexpr e <= M2)%nat -> lex_logical sch st2 f d i = LOk e r;
  lim_more : forall d lhs minp la e r, lex_more sch st1 f d lhs minp la = LOk e r ->
      (N.to_nat d + depth_lexpr e <= M2)%nat -> lex_more sch st2 f d lhs minp la = LOk e r;
  lim_inner : forall d rhs rest op p r, lex_inner sch st1 f d rhs rest op = LOk p r ->
      (N.to_nat d + depth_lexpr (fst p) <= M2)%nat -> lex_inner sch st2 f d rhs rest op = LOk p r;
  lim_simple : forall d i e r, lex_simple sch st1 f d i = LOk e r ->
      (N.to_nat d + depth_lexpr e <= M2)%nat -> lex_simple sch st2 f d i = LOk e r;
  lim_index : forall d i e r, lex_index_expr sch st1 f d i = LOk e r ->
      (N.to_nat d + depth_iexpr e <= M2)%nat -> lex_index_expr sch st2 f d i = LOk e r;
  lim_call : forall d i fn a r, lex_call sch st1 f d i fn = LOk a r ->
      (N.to_nat d + depth_args a <= M2)%nat -> lex_call sch st2 f d i fn = LOk a r;
  lim_call_args : forall d i def acc l r, lex_call_args sch st1 f d i def acc = LOk l r ->
      (forall a, In a l -> (N.to_nat d + depth_arg a <= M2)%nat) -> lex_call_args sch st2 f d i def acc = LOk l r;
  lim_arg : forall d i a r, lex_arg sch st1 f d i = LOk a r ->
      (N.to_nat d + depth_arg a <= M2)%nat -> lex_arg sch st2 f d i = LOk a r;
}.

Lemma LIM_0 : LIM 0.
Proof. constructor; intros; discriminate. Qed.

Lemma lt_of_bound d n : (N.to_nat d + S n <= M2)%nat -> d < st_max_depth st2.
Proof. intros H. lia. Qed.

Lemma succ_bound d n : (N.to_nat d + S n <= M2)%nat -> (N.to_nat (d + 1) + n <= M2)%nat.
Proof. intros H. lia. Qed.

Lemma LIM_S f : LIM f -> LIM (S f).
Proof.
  intros IH. constructor.
  - (* logical *)
    intros d i e r H B. cbn [lex_logical] in H |- *. lb H lhs rest0 Hs.
    pose proof (proj1 (chain_depth sch st1 f) _ _ _ _ _ _ H) as Dl.
    rewrite (lim_simple f IH _ _ _ _ Hs ltac:(lia)). cbn [lbind]. apply (lim_more f IH); assumption.
  - (* more: the result contains the left operand and what the inner loop made of the right one *)
    intros d lhs minp [o lrest] e r H B. cbn [lex_more fst snd] in H |- *.
    destruct o as [op|]; [|exact H]. lb H rhs rhs_rest Hs.
    destruct (lex_inner sch st1 f d rhs rhs_rest op) as [[rhs' la'] rr'|k a n| |] eqn:Ei; try discriminate H.
    destruct (ty_lexpr sch lhs) as [tl|] eqn:Etl; [|discriminate H]. destruct (ty_lexpr sch rhs') as [tr|] eqn:Etr; [|discriminate H].
    destruct (types_combinable tl tr) eqn:Ecb; [|discriminate H].
    pose proof (proj1 (chain_depth sch st1 f) _ _ _ _ _ _ H) as Dc. rewrite depth_combine in Dc.
    pose proof (proj2 (chain_depth sch st1 f) _ _ _ _ _ _ Ei) as Di. cbn [fst] in Di.
    rewrite (lim_simple f IH _ _ _ _ Hs ltac:(lia)). cbn [lbind].
    rewrite (lim_inner f IH _ _ _ _ _ _ Ei ltac:(cbn [fst]; lia)). rewrite ?Etl, Etr, Ecb.
    apply (lim_more f IH); assumption.
  - (* inner *)
    intros d rhs rest op p r H B. cbn [lex_inner] in H |- *. cbv zeta in H |- *.
    destruct (Nat.leb _ _); [exact H|].
    destruct (lex_more sch st1 f d rhs (fst (lex_combining_op rest)) (lex_combining_op rest)) as [rhs' rest'|k a n| |] eqn:Em;
      try discriminate H.
    pose proof (proj2 (chain_depth sch st1 f) _ _ _ _ _ _ H) as Di.
    rewrite (lim_more f IH _ _ _ _ _ _ Em ltac:(lia)). apply (lim_inner f IH); assumption.
  - (* simple *)
    intros d i e r H B. rewrite lex_simple_S in H |- *.
    destruct (starts_with [40] i) as [r0|].
    { apply increase_bind_ok in H. lb H e1 rest1 Hl. lb H u rest2 He. injection H as <- <-. cbn [depth_lexpr] in B.
      rewrite (increase_intro st2 d i (lt_of_bound _ _ B)). cbn [lbind].
      rewrite (lim_logical f IH _ _ _ _ Hl (succ_bound _ _ B)). cbn [lbind]. rewrite He. reflexivity. }
    destruct (lex_alts unary_ops i) as [[u r0]|].
    { apply increase_bind_ok in H. lb H e1 rest1 Hl. injection H as <- <-. cbn [depth_lexpr] in B.
      rewrite (increase_intro st2 d i (lt_of_bound _ _ B)). cbn [lbind].
      rewrite (lim_simple f IH _ _ _ _ Hl (succ_bound _ _ B)). reflexivity. }
    destruct (lex_quant_call i) as [[q r0]|].
    { apply increase_bind_ok in H. lb H u rest1 He.
      destruct (lex_arg sch st1 f (d + 1) (skip_space rest1)) as [a rest2|k aa n| |] eqn:Ea; try discriminate H.
      assert (Ba : (N.to_nat d + S (depth_arg a) <= M2)%nat).
      { destruct (quant_arg_ok _ _ _ _ _ _ _ H) as (_ & [(ie & -> & -> & _)|(le & -> & -> & _)]); exact B. }
      rewrite (increase_intro st2 d _ (lt_of_bound _ _ Ba)). cbn [lbind]. rewrite He. cbn [lbind].
      rewrite (lim_arg f IH _ _ _ _ Ea (succ_bound _ _ Ba)). exact H. }
    lb H lhs rest0 Hi. destruct (with_lhs_ok _ _ _ _ _ _ _ _ H) as (op & -> & _). cbn [depth_lexpr] in B.
    rewrite (lim_index f IH _ _ _ _ Hi B). cbn [lbind]. rewrite <- (with_lhs_st sch st1 st2 f d d rest0 lhs Hstar). exact H.
  - (* index expression *)
    intros d i e r H B. cbn [lex_index_expr] in H |- *.
    destruct (lex_ident_name i) as [name rest0|k a n| |]; try discriminate H.
    destruct (scheme_get sch name) as [[j|j]|]; [| |discriminate H].
    + destruct (field_ty sch j); [|discriminate H]. rewrite (lex_indexes_st sch st2 st1). exact H.
    + apply increase_bind_ok in H.
      destruct (lex_call sch st1 f (d + 1) rest0 j) as [a rest1|k a n| |] eqn:Ec; try discriminate H.
      destruct (ty_call sch j a) as [t|] eqn:Et; [|discriminate H].
      pose proof H as H0. apply lmap_ok in H0. destruct H0 as (idx & _ & ->). cbn [depth_iexpr] in B.
      rewrite (increase_intro st2 d _ (lt_of_bound _ _ B)).
      rewrite (lim_call f IH _ _ _ _ _ Ec (succ_bound _ _ B)). rewrite Et.
      rewrite (lex_indexes_st sch st2 st1). exact H.
  - (* call *)
    intros d i fn a r H B. cbn [lex_call] in H |- *. destruct (fn_of sch fn) as [def|]; [|discriminate H].
    lb H u rest He. rewrite He. cbn [lbind]. pose proof H as H0. apply lmap_ok in H0. destruct H0 as (l & Hl & ->).
    rewrite (lim_call_args f IH _ _ _ _ _ _ Hl); [reflexivity|].
    intros x Hx. pose proof (depth_args_in l x Hx). lia.
  - (* call arguments *)
    intros d i def acc l r H B. destruct (lex_call_args_S i) as [E|E]; rewrite E in H |- *; [exact H|].
    unfold call_args_next in H |- *. lb H u input1 Hu. rewrite Hu. cbn [lbind].
    destruct (lex_arg sch st1 f d (skip_space input1)) as [a rest|k aa n| |] eqn:Ea; try discriminate H.
    destruct (call_args_push_ok _ _ _ _ _ _ _ _ _ _ _ H) as (_ & t & Et & Ecp & Hx).
    destruct (call_args_extends _ _ _ _ _ _ _ Hx) as (more & Hl).
    assert (Ba : (N.to_nat d + depth_arg a <= M2)%nat).
    { apply B. rewrite Hl. apply in_or_app. left. apply in_or_app. right. now left. }
    rewrite (lim_arg f IH _ _ _ _ Ea Ba). unfold call_args_push in H |- *. rewrite Et, Ecp in H |- *.
    destruct (_ && _); [exact H|]. destruct (_ && _); [exact H|].
    apply (lim_call_args f IH); assumption.
  - (* argument *)
    intros d i a r H B. destruct (lex_arg_S i) as [E|[E|E]]; rewrite E in H |- *; [exact H| |].
    { pose proof H as H0. apply lmap_ok in H0. destruct H0 as (e & He & ->). cbn [depth_arg] in B.
      rewrite (lim_logical f IH _ _ _ _ He B). reflexivity. }
    change (let '(c1, c2, c3) := first_chars i in _) with (arg_propagates i) in H |- *.
    unfold arg_index_or_cmp in H |- *.
    destruct (lex_index_expr sch st1 f d i) as [lhs rest0|k aa n| |] eqn:Ei; try discriminate H.
    + assert (Bl : (N.to_nat d + depth_iexpr lhs <= M2)%nat).
      { destruct (lex_alts comparison_ops (skip_space rest0)).
        - apply lmap_ok in H. destruct H as (e & H & ->). destruct (with_lhs_ok _ _ _ _ _ _ _ _ H) as (op & -> & _).
          exact B.
        - injection H as <- _. exact B. }
      rewrite (lim_index f IH _ _ _ _ Ei Bl). rewrite <- (with_lhs_st sch st1 st2 f d d rest0 lhs Hstar). exact H.
    + destruct (arg_propagates i) eqn:Ep; [discriminate H|]. rewrite <- (index_st_indep f d i Ep), Ei. exact H.
Qed.

Theorem limit_exact f : LIM f.
Proof. induction f as [|f IH]; [apply LIM_0|now apply LIM_S]. Qed.

End Limit.

Lemma complete_ok {A} (x : lres A) a r : complete x = LOk a r -> x = LOk a [] /\ r = [].
Proof. destruct x as [a' [|b rest]|k s n| |]; cbn; intros H; try discriminate. injection H as <- <-. auto. Qed.

Theorem parse_filter_limit_exact sch st1 st2 text e r :
  st_star_limit st1 = st_star_limit st2 -> fn_names_ok sch ->
  parse_filter sch st1 text = LOk e r -> (depth_lexpr e <= N.to_nat (st_max_depth st2))%nat ->
  parse_filter sch st2 text = LOk e r.
Proof.
  intros Hs Hn H B. unfold parse_filter in H |- *. apply complete_ok in H. destruct H as [H ->].
  apply lbind_ok in H. destruct H as (e0 & rest0 & Hl & H).
  assert (e0 = e /\ rest0 = []) as [-> ->].
  { destruct (ty_lexpr sch e0) as [[]|]; try discriminate H. injection H as <- <-. auto. }
  rewrite (lim_logical sch st1 st2 _ (limit_exact sch st1 st2 Hs Hn _) _ _ _ _ Hl ltac:(cbn; lia)).
  cbn [lbind]. rewrite H. reflexivity.
Qed.

Theorem parse_value_limit_exact sch st1 st2 text e r :
  st_star_limit st1 = st_star_limit st2 -> fn_names_ok sch ->
  parse_value sch st1 text = LOk e r -> (depth_iexpr e <= N.to_nat (st_max_depth st2))%nat ->
  parse_value sch st2 text = LOk e r.
Proof.
  intros Hs Hn H B. unfold parse_value in H |- *. apply complete_ok in H. destruct H as [H ->].
  apply lbind_ok in H. destruct H as (e0 & rest0 & Hl & H).
  assert (e0 = e /\ rest0 = []) as [-> ->].
  { destruct (Nat.ltb 0 _); [discriminate H|]. injection H as <- <-. auto. }
  rewrite (lim_index sch st1 st2 _ (limit_exact sch st1 st2 Hs Hn _) _ _ _ _ Hl ltac:(cbn; lia)).
  cbn [lbind]. rewrite H. reflexivity.
Qed.
