(* Proofs for C17: `in $list` delegates to the context's matcher for the type,
   the list-name lexer accepts exactly the permitted names, the parser model
   rejects `in $name` without a registered list, and the context's matcher
   slots refine the abstract, type-keyed matcher state for every history. *)
From Coq Require Import List NArith Bool Lia Arith.
From WF Require Import Base.Bytes Lang.Types Lang.Ast Lang.Context Sem.Compile Spec.Denote
     Spec.Typing Proofs.ListFacts Proofs.ScalarProofs Proofs.ValueProofs Proofs.IndexProofs
     Proofs.ExecProofs Proofs.CallProofs Proofs.FullProofs Parse.Lex Parse.Parser
     Proofs.ParserProofs Sem.ListState Spec.C17 Proofs.ByteKeys.
Import ListNotations.
Local Notation length := List.length (only parsing).

Definition list_ty (t : ty) : Prop := t = TInt \/ t = TBytes \/ t = TIp.

Lemma list_ty_prim t : list_ty t -> is_prim t = true.
Proof. intros [->|[->| ->]]; reflexivity. Qed.

Lemma cmp_holds_inlist sch c li name tl v :
  list_ty tl -> has_type v tl = true ->
  cmp_holds sch (CInList li name) c v = option_map (fun m => match_value m name v) (ctx_matcher sch c tl).
Proof.
  intros Hl Hv. pose proof (has_type_prim_inv v tl Hv) as Hinv. unfold ctx_matcher.
  destruct Hl as [->|[->| ->]]; destruct Hinv as [x ->]; cbn [cmp_holds type_of];
    destruct (list_index sch _); reflexivity.
Qed.

Lemma all_some_map_some {A B} (f : A -> option B) (g : A -> B) (l : list A) :
  Forall (fun x => f x = Some (g x)) l -> all_some (map f l) = Some (map g l).
Proof. induction 1 as [|x l Hx _ IH]; cbn [map all_some]; [reflexivity|now rewrite Hx, IH]. Qed.

Lemma select_typed base t0 idx t :
  (forall v, base = Some v -> has_type v t0 = true) -> ty_index_ok t0 idx = Some t ->
  match select base idx with
  | SAbsent => True
  | SOne x => has_type x t = true
  | SMany l => Forall (fun x => has_type x t = true) l
  end.
Proof.
  intros Hb Hi. unfold select. destruct base as [v|].
  - specialize (Hb v eq_refl). destruct (Nat.eqb_spec (map_each_count idx) 0) as [En|_].
    + destruct (get_nested_typed idx v t0 t Hb Hi En) as (_ & Hx).
      destruct (get_path v idx) as [x|]; [now apply Hx|exact I].
    + now apply (flatten_typed idx v t0 t).
  - destruct (Nat.eqb (map_each_count idx) 0); [exact I|constructor].
Qed.

Lemma wt_inlist_inv sch lhs li name t :
  wt_lexpr sch (EComparison lhs (CInList li name)) = Some t ->
  exists tl, wt_iexpr sch lhs = Some tl /\ list_ty tl /\ list_index sch tl = Some li /\
             t = (if Nat.eqb (map_each_count (iexpr_idx lhs)) 0 then TBool else TArray TBool).
Proof.
  cbn [wt_lexpr]. destruct (wt_iexpr sch lhs) as [tl|]; [|discriminate]. intros H. exists tl.
  (* only the three list types pass [is_prim] and [op_ok], and the latter compares the registered index with li *)
  destruct tl as [| | | |[]|[]]; try discriminate H; cbn [is_prim op_ok andb] in H;
    (destruct (list_index sch _) as [i|]; [|discriminate H]);
    (destruct (Nat.eqb_spec i li) as [E|]; [|discriminate H]); injection H as <-; unfold list_ty; auto 6.
Qed.

Lemma ctx_matcher_some sch c tl li :
  ctx_ok sch c = true -> list_index sch tl = Some li -> exists m, ctx_matcher sch c tl = Some m.
Proof.
  unfold ctx_matcher. intros Hc%ScalarProofs.ctx_ok_lists Hl. rewrite Hl.
  apply list_index_bound in Hl. rewrite <- Hc in Hl.
  destruct (nth_error (cx_lists c) li) as [m|] eqn:E; [eauto|]. apply nth_error_None in E. lia.
Qed.

Lemma denote_inlist sch c lhs li name tl m base t0 :
  list_ty tl -> ctx_matcher sch c tl = Some m ->
  denote_ident sch lhs c = Some (base, t0, iexpr_idx lhs) ->
  ty_index_ok t0 (iexpr_idx lhs) = Some tl ->
  (forall v, base = Some v -> has_type v t0 = true) ->
  denote sch (EComparison lhs (CInList li name)) c =
  Some (in_list_spec (match_value m name) (select base (iexpr_idx lhs))).
Proof.
  intros Hl Hm Hden Hidx Hbase. rewrite denote_cmp_eq, Hden, ty_index_spec_eq, Hidx.
  rewrite (cmp_denote_prim sch c _ tl base _ (list_ty_prim tl Hl)). unfold cmp_plain.
  pose proof (select_typed base t0 (iexpr_idx lhs) tl Hbase Hidx) as Ht.
  destruct (select base (iexpr_idx lhs)) as [|x|l]; cbn [in_list_spec].
  - reflexivity.
  - now rewrite (cmp_holds_inlist sch c li name tl x Hl Ht), Hm.
  - rewrite (all_some_map_some _ (match_value m name)); [reflexivity|].
    eapply Forall_impl; [|exact Ht]. intros x Hx. cbv beta.
    now rewrite (cmp_holds_inlist sch c li name tl x Hl Hx), Hm.
Qed.

Theorem inlist_delegates sch c lhs li name t :
  ctx_ok sch c = true -> fns_ok sch ->
  wt_lexpr sch (EComparison lhs (CInList li name)) = Some t ->
  exists tl m base t0 ce,
    wt_iexpr sch lhs = Some tl /\ list_ty tl /\ list_index sch tl = Some li /\
    ctx_matcher sch c tl = Some m /\
    denote_ident sch lhs c = Some (base, t0, iexpr_idx lhs) /\
    compile_lexpr sch (EComparison lhs (CInList li name)) = Some ce /\
    runs c ce (in_list_spec (match_value m name) (select base (iexpr_idx lhs))).
Proof.
  intros Hc Hf Hwt. destruct (wt_inlist_inv sch lhs li name t Hwt) as (tl & Htl & Hl & Hli & _).
  destruct (ctx_matcher_some sch c tl li Hc Hli) as (m & Hm).
  destruct (full_correct_mut sch c Hc Hf) as (PL & _ & PI & _).
  destruct (PI lhs tl Htl) as (_ & base & t0 & src & Hden & Hidx & Hbase & _).
  destruct (PL _ t Hwt) as (_ & ce & r & Hce & Hr & Hruns & _).
  rewrite (denote_inlist sch c lhs li name tl m base t0 Hl Hm Hden Hidx Hbase) in Hr. injection Hr as <-.
  exists tl, m, base, t0, ce. auto 8.
Qed.

Lemma prefix_absent_empty base idx :
  prefix_absent base idx = true -> map_each_count idx <> 0%nat -> select base idx = SMany [].
Proof.
  intros Hp Hn. unfold select. apply Nat.eqb_neq in Hn. rewrite Hn. destruct base as [v|]; [|reflexivity].
  cbn [prefix_absent] in Hp.
  destruct (Nat.eqb (map_each_count idx) 1 && index_is_each (last idx (IArr 0))) eqn:E; [|discriminate Hp].
  apply andb_true_iff in E as [E1%Nat.eqb_eq E2].
  destruct (get_path v (removelast idx)) as [x|] eqn:Eg; [discriminate Hp|].
  assert (Hne : idx <> []) by (intros ->; discriminate E1).
  rewrite (app_removelast_last (IArr 0) Hne) in E1 |- *.
  destruct (last idx (IArr 0)); try discriminate E2.
  rewrite mec_app in E1. cbn in E1.
  rewrite flatten_prefix_each by lia. now rewrite Eg.
Qed.

Theorem lhs_values_spec sch c lhs tl :
  ctx_ok sch c = true -> fns_ok sch -> wt_iexpr sch lhs = Some tl ->
  exists base t0, denote_ident sch lhs c = Some (base, t0, iexpr_idx lhs) /\
    lhs_values sch lhs c = Some (in_list_queries (select base (iexpr_idx lhs))).
Proof.
  intros Hc Hf Hwt. destruct (full_correct_mut sch c Hc Hf) as (_ & _ & PI & _).
  destruct (PI lhs tl Hwt) as (_ & base & t0 & src & Hden & Hidx & Hbase & _ & _ & cv & Hcv & Hpost).
  exists base, t0. split; [exact Hden|]. unfold lhs_values. rewrite Hcv.
  destruct (cv c) as [r|]; [|destruct Hpost]. destruct Hpost as [H0 H1].
  destruct (Nat.eqb_spec (map_each_count (iexpr_idx lhs)) 0) as [En|En].
  - destruct (H0 En) as [-> _]. unfold select. rewrite (proj2 (Nat.eqb_eq _ _) En).
    destruct base as [v|]; [destruct (get_path v (iexpr_idx lhs))|]; cbn [sel_vres in_list_queries];
      now rewrite ?(proj2 (Nat.eqb_eq _ _) En).
  - specialize (H1 En).
    destruct (select base (iexpr_idx lhs)) as [|x|l] eqn:Es; try contradiction.
    destruct H1 as (He & _ & Hcont). destruct r as [v|ta]; cbn [vres_elems] in He.
    + destruct (prefix_absent base (iexpr_idx lhs)); [discriminate He|]. injection He as <-.
      destruct v; cbn in Hcont; try contradiction; reflexivity.
    + destruct (prefix_absent base (iexpr_idx lhs)) eqn:Ep; [|discriminate He].
      rewrite (prefix_absent_empty _ _ Ep En) in Es. now injection Es as <-.
Qed.

Lemma always_matches_all : always_answers MAlways.
Proof. intros name v. reflexivity. Qed.

Lemma never_matches_none : never_answers MNever.
Proof. intros name v. reflexivity. Qed.

Lemma in_list_spec_always name x :
  in_list_spec (match_value MAlways name) x =
  match x with SAbsent => ROne false | SOne _ => ROne true | SMany l => RVec (map (fun _ => true) l) end.
Proof. destruct x; reflexivity. Qed.

Lemma in_list_spec_never name x :
  in_list_spec (match_value MNever name) x =
  match x with SAbsent | SOne _ => ROne false | SMany l => RVec (map (fun _ => false) l) end.
Proof. destruct x; reflexivity. Qed.

Lemma inlist_delegates_to sch c lhs li name t tl m :
  ctx_ok sch c = true -> fns_ok sch ->
  wt_lexpr sch (EComparison lhs (CInList li name)) = Some t ->
  wt_iexpr sch lhs = Some tl -> ctx_matcher sch c tl = Some m ->
  exists base t0 ce,
    denote_ident sch lhs c = Some (base, t0, iexpr_idx lhs) /\
    compile_lexpr sch (EComparison lhs (CInList li name)) = Some ce /\
    runs c ce (in_list_spec (match_value m name) (select base (iexpr_idx lhs))).
Proof.
  intros Hc Hf Hwt Htl Hm.
  destruct (inlist_delegates sch c lhs li name t Hc Hf Hwt) as (tl' & m' & base & t0 & ce & H1 & _ & _ & H4 & H5).
  exists base, t0, ce. congruence.
Qed.

Lemma listname_char_eq b : is_ascii b && is_listname_char b = name_char b.
Proof.
  change (is_listname_char b) with (name_char b). unfold is_ascii.
  destruct (N.ltb_spec b 128) as [|H]; [reflexivity|]. unfold name_char.
  rewrite (proj2 (N.leb_gt b 122)), (proj2 (N.leb_gt b 57)), (proj2 (N.eqb_neq b 95)), (proj2 (N.eqb_neq b 46)) by lia.
  now rewrite !andb_false_r.
Qed.

Lemma name_run_split s : name_split s (name_run s) (skipn (length (name_run s)) s).
Proof.
  induction s as [|b s IH]; cbn [name_run]; [repeat split|].
  destruct (name_char b) eqn:Eb; [|now repeat split].
  destruct IH as (H1 & H2 & H3). unfold name_split. cbn [length skipn forallb app]. rewrite Eb, H2. repeat split; [congruence|exact H3].
Qed.

Lemma name_split_unique s : forall name rest, name_split s name rest -> name = name_run s.
Proof.
  induction s as [|b s IH]; intros [|x name] rest (Hs & Hn & Hr); cbn [name_run]; try discriminate Hs.
  - reflexivity.
  - cbn in Hs. subst rest. now rewrite Hr.
  - injection Hs as <- Hs. cbn [forallb] in Hn. apply andb_true_iff in Hn as [-> Hn].
    f_equal. apply (IH name rest). now repeat split.
Qed.

(* ListName::lex after `$`: the longest run of name characters is read; it is
   accepted exactly when it is a permitted name *)
Theorem lex_list_name_spec s name rest :
  name_split s name rest ->
  lex_list_name (36 :: s)%N =
  if permitted_name name then LOk name rest else LErr EInvalidListName s (length s).
Proof.
  intros (-> & Hc & Hr). unfold lex_list_name. cbn [starts_with]. rewrite N.eqb_refl, LexBase.take_while_go_app.
  - unfold permitted_name. rewrite Hc. destruct name as [|x name]; [reflexivity|]. cbn [andb hd].
    now destruct (x =? 46)%N, (last (x :: name) 0 =? 46)%N.
  - apply Forall_forall. intros b Hb. rewrite listname_char_eq. exact (proj1 (forallb_forall _ _) Hc b Hb).
  - destruct rest; [exact I|]. unfold LexBase.stops. now rewrite listname_char_eq.
Qed.

Corollary lex_list_name_accepts i name rest :
  lex_list_name i = LOk name rest <->
  exists s, i = (36 :: s)%N /\ name_split s name rest /\ permitted_name name = true.
Proof.
  split.
  - intros H. destruct (starts_with [36]%N i) as [s|] eqn:Es.
    + apply starts_with_inv in Es. cbn [app] in Es. subst i. exists s. split; [reflexivity|].
      pose proof (name_run_split s) as Hsp. rewrite (lex_list_name_spec s _ _ Hsp) in H.
      destruct (permitted_name (name_run s)) eqn:Ep; [|discriminate H]. injection H as <- <-. now split.
    + unfold lex_list_name in H. now rewrite Es in H.
  - intros (s & -> & Hsp & Hp). now rewrite (lex_list_name_spec s name rest Hsp), Hp.
Qed.

Corollary lex_list_name_rejects s :
  permitted_name (name_run s) = false -> lex_list_name (36 :: s)%N = LErr EInvalidListName s (length s).
Proof. intros H. rewrite (lex_list_name_spec s _ _ (name_run_split s)), H. reflexivity. Qed.

(* ComparisonExpr::lex_with_lhs, the `in $name` branch *)
Theorem with_lhs_in_list sch st f d input lhs t after_op s :
  ty_iexpr sch lhs = Some t -> list_ty t ->
  lex_alts comparison_ops (skip_space input) = Some (OpIn, after_op) ->
  skip_space after_op = (36 :: s)%N ->
  lex_with_lhs sch st (S f) d input lhs =
  match lex_list_name (36 :: s)%N with
  | LOk name rest =>
      match list_index sch t with
      | Some li => LOk (EComparison lhs (CInList li name)) rest
      | None => LErr EUnsupportedOp (skip_space input) (span_len (skip_space input) rest)
      end
  | LErr k a n => LErr k a n
  | LPanic => LPanic
  | LFuel => LFuel
  end.
Proof.
  intros Ht Hl Hop Hs. cbn [lex_with_lhs]. rewrite Ht.
  (* one case analysis of the unfolded lexer on the type; only the list types are possible *)
  destruct t; try (exfalso; destruct Hl as [|[|]]; discriminate);
    cbn [negb]; rewrite Hop, Hs; cbn [negb starts_with]; rewrite N.eqb_refl;
    now destruct (lex_list_name (36 :: s)%N).
Qed.

Corollary no_list_rejected sch st f d input lhs t after_op s :
  ty_iexpr sch lhs = Some t -> list_ty t ->
  lex_alts comparison_ops (skip_space input) = Some (OpIn, after_op) ->
  skip_space after_op = (36 :: s)%N ->
  list_index sch t = None ->
  exists k a n, lex_with_lhs sch st (S f) d input lhs = LErr k a n /\ (k = EUnsupportedOp \/ k = EInvalidListName).
Proof.
  intros Ht Hl Hop Hs Hn. rewrite (with_lhs_in_list sch st f d input lhs t after_op s Ht Hl Hop Hs), Hn.
  rewrite (lex_list_name_spec s _ _ (name_run_split s)). destruct (permitted_name (name_run s)); eauto 8.
Qed.

Lemma set_nth_length {A} (l : list A) : forall i x, length (set_nth l i x) = length l.
Proof. induction l as [|y l IH]; intros [|i] x; cbn; auto. Qed.

Lemma nth_error_set_nth {A} (l : list A) : forall i x j,
  nth_error (set_nth l i x) j =
  if Nat.eqb j i then option_map (fun _ => x) (nth_error l i) else nth_error l j.
Proof.
  induction l as [|y l IH]; intros [|i] x [|j]; cbn; try reflexivity; [now destruct (Nat.eqb j i)|apply IH].
Qed.

Lemma nth_error_view {A} (g : nat -> A) n j :
  nth_error (map g (seq 0 n)) j = if Nat.ltb j n then Some (g j) else None.
Proof.
  rewrite nth_error_map. destruct (Nat.ltb_spec j n) as [H|H].
  - now rewrite nth_error_seq'.
  - now rewrite (proj2 (nth_error_None _ _)) by (rewrite seq_length; exact H).
Qed.

Lemma set_nth_view {A} (g : nat -> A) n f x :
  (f < n)%nat -> set_nth (map g (seq 0 n)) f x = map (upd_nat g f x) (seq 0 n).
Proof.
  intros Hf%Nat.ltb_lt. apply nth_error_ext. intros j. rewrite nth_error_set_nth, !nth_error_view, Hf.
  unfold upd_nat. now destruct (Nat.eqb_spec j f) as [->|Hne]; [rewrite Hf|].
Qed.

Lemma map_const_seq {A B} (x : B) (l : list A) : forall s, map (fun _ => x) l = map (fun _ => x) (seq s (length l)).
Proof. induction l as [|y l IH]; intros s; cbn; [reflexivity|f_equal; apply IH]. Qed.

Lemma in_rotate {A} k (l : list A) x : In x (rotate k l) <-> In x l.
Proof.
  unfold rotate. generalize (Nat.modulo k (length l)). intros n.
  rewrite <- (firstn_skipn n l) at 3. rewrite !in_app_iff. tauto.
Qed.

Lemma list_index_from_kind ls t : forall k0,
  match list_index_from ls t k0 with
  | Some i => exists j k, i = (k0 + j)%nat /\ nth_error ls j = Some (t, k) /\
                          option_map snd (find (fun p => ty_eqb t (fst p)) ls) = Some k
  | None => find (fun p => ty_eqb t (fst p)) ls = None
  end.
Proof.
  induction ls as [|[t' k'] ls IH]; intros k0; cbn [list_index_from find fst]; [reflexivity|].
  destruct (ty_eqb t t') eqn:E.
  - apply ty_eqb_eq in E as <-. exists 0%nat, k'. now rewrite Nat.add_0_r.
  - specialize (IH (S k0)). destruct (list_index_from ls t (S k0)) as [i|]; [|exact IH].
    destruct IH as (j & k & -> & H). exists (S j), k. split; [lia|exact H].
Qed.

Lemma list_index_kind sch t :
  match list_index sch t with
  | Some i => exists k, nth_error (sc_lists sch) i = Some (t, k) /\ kind_of sch t = Some k
  | None => kind_of sch t = None
  end.
Proof.
  unfold list_index, kind_of. pose proof (list_index_from_kind (sc_lists sch) t 0) as H.
  destruct (list_index_from (sc_lists sch) t 0) as [i|]; [|now rewrite H].
  destruct H as (j & k & -> & H). now exists k.
Qed.

Lemma distinct_nth sch i j t k k' :
  lists_distinct sch -> nth_error (sc_lists sch) i = Some (t, k) -> nth_error (sc_lists sch) j = Some (t, k') -> i = j.
Proof. intros Hd Hi Hj. exact (NoDup_map_nth fst _ i j _ _ Hd Hi Hj eq_refl). Qed.

Lemma kind_of_in sch p : lists_distinct sch -> In p (sc_lists sch) -> kind_of sch (fst p) = Some (snd p).
Proof.
  unfold lists_distinct, kind_of. induction (sc_lists sch) as [|q ls IH]; [intros _ []|].
  cbn [map find]. intros [Hq Hls]%NoDup_cons_iff [->|Hp].
  - now rewrite ty_eqb_refl.
  - rewrite ty_eqb_neq; [now apply IH|]. intros E. apply Hq. rewrite <- E. now apply in_map.
Qed.

Definition getm (am : ty -> option matcher) (p : ty * list_kind) : matcher :=
  match am (fst p) with Some m => m | None => MNever end.
Definition view_lists (sch : scheme) (am : ty -> option matcher) : list matcher := map (getm am) (sc_lists sch).
Definition view_vals (sch : scheme) (av : nat -> option value) : list (option value) :=
  map av (seq 0 (length (sc_fields sch))).

Definition mkind (m : matcher) : list_kind :=
  match m with MAlways => LkAlways | MNever => LkNever | MSet _ => LkSet end.

Definition am_ok (sch : scheme) (am : ty -> option matcher) : Prop :=
  forall t, match kind_of sch t with
            | Some k => exists m, am t = Some m /\ mkind m = k
            | None => am t = None
            end.

Definition av_ok (sch : scheme) (av : nat -> option value) : Prop :=
  forall f v, av f = Some v -> exists fd, nth_error (sc_fields sch) f = Some fd /\ has_type v (fd_ty fd) = true.

Definition a_ok (sch : scheme) (a : astate) : Prop := am_ok sch (a_match a) /\ av_ok sch (a_vals a).

Lemma deserialize_kind k d m : deserialize_matcher k d = Some m -> mkind m = k.
Proof. destruct k, d; cbn; intros [= <-]; reflexivity. Qed.

Lemma deserialize_own m : deserialize_matcher (mkind m) (mdata_of m) = Some m.
Proof. destruct m; reflexivity. Qed.

Lemma ser_lists_view (G : ty * list_kind -> matcher) ms : forall ls i,
  (forall j p, nth_error ls j = Some p -> nth_error ms (i + j) = Some (G p)) ->
  ser_lists ls i ms = Some (map (fun p => (fst p, mdata_of (G p))) ls).
Proof.
  induction ls as [|[t k] ls IH]; intros i H; cbn [ser_lists map fst]; [reflexivity|].
  pose proof (H 0%nat (t, k) eq_refl) as H0. rewrite Nat.add_0_r in H0. rewrite H0, (IH (S i)); [reflexivity|].
  intros j p Hj. rewrite Nat.add_succ_comm. exact (H (S j) p Hj).
Qed.

Section Refinement.
Variable sch : scheme.
Hypothesis Hd : lists_distinct sch.
Hypothesis Hopt : all_optional sch.
Hypothesis Hf : fns_ok sch.

Lemma a_view_eq a : a_view sch a = {| cx_vals := view_vals sch (a_vals a); cx_lists := view_lists sch (a_match a) |}.
Proof. reflexivity. Qed.

Lemma view_lists_nth am i p :
  nth_error (sc_lists sch) i = Some p -> nth_error (view_lists sch am) i = Some (getm am p).
Proof. apply map_nth_error. Qed.

Lemma set_nth_view_lists am i t k m :
  nth_error (sc_lists sch) i = Some (t, k) ->
  set_nth (view_lists sch am) i m = view_lists sch (upd_ty am t (Some m)).
Proof.
  intros Hi. apply nth_error_ext. intros j. unfold view_lists. rewrite nth_error_set_nth, !nth_error_map, Hi.
  unfold getm, upd_ty. destruct (Nat.eqb_spec j i) as [->|Hne].
  - rewrite Hi. cbn. now rewrite ty_eqb_refl.
  - destruct (nth_error (sc_lists sch) j) as [[t' k']|] eqn:Ej; [|reflexivity]. cbn.
    rewrite ty_eqb_neq; [reflexivity|]. intros ->. eauto using distinct_nth.
Qed.

Lemma view_vals_ext av av' :
  (forall j, (j < length (sc_fields sch))%nat -> av j = av' j) -> view_vals sch av = view_vals sch av'.
Proof. intros H. apply map_ext_in. intros j Hj%in_seq. apply H, Hj. Qed.

Lemma view_vals_write av f fd x :
  nth_error (sc_fields sch) f = Some fd ->
  Nat.ltb f (length (view_vals sch av)) = true /\
  set_nth (view_vals sch av) f x = view_vals sch (upd_nat av f x).
Proof.
  intros Hfd. assert (Hlt : (f < length (sc_fields sch))%nat) by (apply nth_error_Some; congruence).
  unfold view_vals. rewrite map_length, seq_length. split; [now apply Nat.ltb_lt|now apply set_nth_view].
Qed.

Lemma am_ok_new : am_ok sch (a_match (a_new sch)).
Proof.
  intros t. cbn [a_new a_match]. destruct (kind_of sch t) as [k|]; [|reflexivity].
  exists (fresh_matcher k). now destruct k.
Qed.

Lemma a_ok_new : a_ok sch (a_new sch).
Proof. split; [apply am_ok_new|discriminate]. Qed.

Lemma am_ok_upd am t k m :
  am_ok sch am -> kind_of sch t = Some k -> mkind m = k -> am_ok sch (upd_ty am t (Some m)).
Proof.
  intros H Hk Hm t'. unfold upd_ty. destruct (ty_eqb t' t) eqn:E; [|apply H].
  apply ty_eqb_eq in E as ->. rewrite Hk. eauto.
Qed.

Lemma am_ok_slot am t : am_ok sch am ->
  match list_index sch t with
  | Some i => exists k m, nth_error (sc_lists sch) i = Some (t, k) /\ kind_of sch t = Some k /\
                          am t = Some m /\ mkind m = k /\ nth_error (view_lists sch am) i = Some m
  | None => am t = None
  end.
Proof.
  intros Hm. pose proof (list_index_kind sch t) as Hk. pose proof (Hm t) as Hmt.
  destruct (list_index sch t) as [i|]; [|now rewrite Hk in Hmt].
  destruct Hk as (k & Hn & Hk). rewrite Hk in Hmt. destruct Hmt as (m & Hmm & Hmk).
  exists k, m. rewrite (view_lists_nth am i _ Hn). unfold getm. cbn [fst]. now rewrite Hmm.
Qed.

Lemma new_ctx_view : new_ctx sch = a_view sch (a_new sch).
Proof.
  rewrite a_view_eq. unfold new_ctx. f_equal.
  - apply map_const_seq.
  - apply map_ext_in. intros p Hp. unfold getm. cbn [a_new a_match].
    rewrite (kind_of_in sch p Hd Hp). now destruct (snd p).
Qed.

Lemma de_lists_view es : forall cur,
  de_lists sch (view_lists sch cur) es =
  match a_entries sch cur es with inl m => Ok (view_lists sch m) | inr e => Err e end.
Proof.
  induction es as [|[t d] es IH]; intros cur; cbn [de_lists a_entries]; [reflexivity|].
  pose proof (list_index_kind sch t) as Hk. destruct (list_index sch t) as [i|]; [|now rewrite Hk].
  destruct Hk as (k & Hn & ->). rewrite Hn. destruct (deserialize_matcher k d) as [m|]; [|reflexivity].
  rewrite (proj2 (Nat.ltb_lt i _)), (set_nth_view_lists cur i t k m Hn); [apply IH|].
  apply nth_error_Some. rewrite (view_lists_nth cur i _ Hn). discriminate.
Qed.

Lemma a_entries_ok es : forall cur m, am_ok sch cur -> a_entries sch cur es = inl m -> am_ok sch m.
Proof.
  induction es as [|[t d] es IH]; intros cur m Hc H; cbn [a_entries] in H; [now injection H as <-|].
  destruct (kind_of sch t) as [k|] eqn:Ek; [|discriminate H].
  destruct (deserialize_matcher k d) as [x|] eqn:Ed; [|discriminate H].
  apply (IH _ _ (am_ok_upd cur t k x Hc Ek (deserialize_kind _ _ _ Ed)) H).
Qed.

(* entries written from the state [am]: reading them back installs [am] at their types
   and keeps what already agreed with it *)
Lemma a_entries_faithful am es :
  (forall t d, In (t, d) es -> exists m, am t = Some m /\ kind_of sch t = Some (mkind m) /\ d = mdata_of m) ->
  forall cur, exists cur', a_entries sch cur es = inl cur' /\
    forall t, In t (map fst es) \/ cur t = am t -> cur' t = am t.
Proof.
  induction es as [|[t d] es IH]; intros Hes cur; cbn [a_entries map fst].
  - exists cur. split; [reflexivity|]. now intros t [[]|H].
  - destruct (Hes t d (or_introl eq_refl)) as (m & Hm & -> & ->). rewrite deserialize_own.
    destruct (IH (fun t' d' H' => Hes t' d' (or_intror H')) (upd_ty cur t (Some m))) as (cur' & -> & Hv).
    exists cur'. split; [reflexivity|]. intros t' H. apply Hv. unfold upd_ty.
    destruct (ty_eqb t' t) eqn:E; [apply ty_eqb_eq in E as ->; auto|].
    destruct H as [[<-|H]|H]; auto. now rewrite ty_eqb_refl in E.
Qed.

(* the field entries are written in index order: when those below i have been read back into a
   context that was empty, the slots below i hold the state's values and the others are still empty *)
Definition below (av : nat -> option value) (i : nat) : nat -> option value :=
  fun j => if Nat.ltb j i then av j else None.

Lemma below_succ av i j : below av (S i) j = upd_nat (below av i) i (av i) j.
Proof.
  unfold below, upd_nat. destruct (Nat.eqb_spec j i) as [->|Hne].
  - now rewrite (proj2 (Nat.ltb_lt i (S i))) by lia.
  - destruct (Nat.ltb_spec j i), (Nat.ltb_spec j (S i)); try reflexivity; lia.
Qed.

Lemma de_ser_fields av : av_ok sch av -> forall fds i,
  (i + length fds = length (sc_fields sch))%nat ->
  de_fields sch (view_vals sch (below av i)) (ser_fields fds i (view_vals sch av)) = Ok (view_vals sch av).
Proof.
  intros Hv. induction fds as [|fd fds IH]; intros i Hi; cbn [ser_fields length] in *.
  - cbn [de_fields]. f_equal. apply view_vals_ext. intros j Hj. unfold below.
    now rewrite (proj2 (Nat.ltb_lt j i)) by lia.
  - unfold view_vals at 2. rewrite nth_error_view, (proj2 (Nat.ltb_lt i _)) by lia.
    fold (view_vals sch av). rewrite <- (IH (S i)) by lia.
    rewrite (view_vals_ext (below av (S i)) _ (fun j _ => below_succ av i j)).
    destruct (av i) as [v|] eqn:E.
    + cbn [de_fields]. destruct (Hv i v E) as (fd' & Hfd & [Hty _]%andb_true_iff).
      destruct (view_vals_write (below av i) i fd' (Some v) Hfd) as [-> ->].
      rewrite Hfd. apply ty_eqb_eq in Hty. now rewrite Hty, ty_eqb_refl.
    + f_equal. apply view_vals_ext. intros j _. unfold upd_nat.
      destruct (Nat.eqb_spec j i) as [->|]; [|reflexivity]. unfold below. now rewrite Nat.ltb_irrefl.
Qed.

Lemma de_lists_own am k : am_ok sch am ->
  de_lists sch (cx_lists (new_ctx sch)) (rotate k (map (fun p => (fst p, mdata_of (getm am p))) (sc_lists sch))) =
  Ok (view_lists sch am).
Proof.
  intros Hm. rewrite new_ctx_view, a_view_eq. cbn [cx_lists]. rewrite de_lists_view.
  set (es := rotate k _).
  assert (Hes : forall p, In p (sc_lists sch) -> In (fst p, mdata_of (getm am p)) es).
  { intros p Hp. apply in_rotate, in_map_iff. now exists p. }
  destruct (a_entries_faithful am es) with (cur := a_match (a_new sch)) as (cur' & -> & Hcur).
  { intros t d (p & [= <- <-] & Hp)%in_rotate%in_map_iff.
    pose proof (kind_of_in sch p Hd Hp) as Hk. pose proof (Hm (fst p)) as Hmp. rewrite Hk in Hmp.
    destruct Hmp as (m & Hmm & Hmk). exists m. unfold getm. now rewrite Hmm, Hmk. }
  f_equal. apply map_ext_in. intros p Hp. unfold getm.
  now rewrite (Hcur (fst p) (or_introl (in_map fst _ _ (Hes p Hp)))).
Qed.

Lemma roundtrip_identity a k :
  a_ok sch a ->
  exists d, serialize sch (a_view sch a) = Some d /\
    deserialize_into sch (new_ctx sch)
      {| cd_fields := cd_fields d; cd_lists := option_map (rotate k) (cd_lists d) |} = Ok (a_view sch a).
Proof.
  intros [Hm Hv]. rewrite a_view_eq.
  assert (Hfields : de_fields sch (cx_vals (new_ctx sch))
            (ser_fields (sc_fields sch) 0 (view_vals sch (a_vals a))) = Ok (view_vals sch (a_vals a))).
  { rewrite new_ctx_view. now apply (de_ser_fields _ Hv (sc_fields sch) 0). }
  unfold serialize, deserialize_into. cbn [cx_lists cx_vals].
  destruct (view_lists sch (a_match a)) as [|m0 ms0] eqn:Evl.
  - (* no list registered: no "$lists" key, and the new context has no slot either *)
    eexists. split; [reflexivity|]. cbn [cd_fields cd_lists option_map]. rewrite Hfields.
    apply map_eq_nil in Evl. cbn [new_ctx cx_lists]. now rewrite Evl.
  - rewrite <- Evl. clear Evl m0 ms0.
    rewrite (ser_lists_view (getm (a_match a)) _ (sc_lists sch) 0) by (intros j p; apply view_lists_nth).
    eexists. split; [reflexivity|]. cbn [cd_fields cd_lists option_map].
    now rewrite Hfields, (de_lists_own _ k Hm).
Qed.

Lemma slots_ok_view av : av_ok sch av ->
  forall fds k, (forall i fd, nth_error fds i = Some fd -> nth_error (sc_fields sch) (k + i) = Some fd) ->
  slots_ok fds (map av (seq k (length fds))) = true.
Proof.
  intros Hv. induction fds as [|fd fds IH]; intros k H; cbn [length seq map slots_ok]; [reflexivity|].
  pose proof (H 0%nat fd eq_refl) as H0. rewrite Nat.add_0_r in H0. apply andb_true_iff. split.
  - unfold slot_ok. destruct (av k) as [v|] eqn:E.
    + destruct (Hv k v E) as (fd' & Hfd' & Hty). congruence.
    + eapply Hopt, nth_error_In, H0.
  - apply IH. intros i fd' Hi. rewrite Nat.add_succ_comm. exact (H (S i) fd' Hi).
Qed.

Lemma ctx_ok_view a : a_ok sch a -> ctx_ok sch (a_view sch a) = true.
Proof.
  intros [_ Hv]. unfold ctx_ok. apply andb_true_iff. split.
  - now apply (slots_ok_view (a_vals a) Hv (sc_fields sch) 0).
  - cbn [a_view cx_lists]. rewrite map_length. apply Nat.eqb_refl.
Qed.

(* what every operation preserves *)
Definition refines (r : ctx * lobs) (r' : astate * lobs) : Prop :=
  r = (a_view sch (fst r'), snd r') /\ a_ok sch (fst r') /\ snd r' <> BPanic /\ snd r' <> BUndef.

(* an operation that leaves the state alone *)
Ltac same_state := split; [reflexivity|split; [assumption|split; discriminate]].

Lemma mutate_refines a t f :
  a_ok sch a -> refines (with_set_matcher sch (a_view sch a) t f) (a_mutate a t f).
Proof.
  intros Ha. pose proof Ha as [Hm Hv]. unfold with_set_matcher, a_mutate.
  pose proof (am_ok_slot _ t Hm) as Hs. destruct (list_index sch t) as [i|]; [|rewrite Hs; same_state].
  destruct Hs as (k & m & Hn & Hk & -> & Hmk & Hsl). rewrite a_view_eq. cbn [cx_lists cx_vals]. rewrite Hsl.
  destruct m as [| |s]; try same_state. rewrite (set_nth_view_lists _ i t k _ Hn).
  split; [reflexivity|]. split; [|split; discriminate]. split; [|exact Hv]. now apply (am_ok_upd _ t k).
Qed.

Lemma query_refines a t (g : matcher -> lobs) :
  a_ok sch a ->
  match list_index sch t with
  | None => (a_view sch a, BNoList)
  | Some i => match nth_error (cx_lists (a_view sch a)) i with Some m => (a_view sch a, g m) | None => (a_view sch a, BPanic) end
  end = (a_view sch a, match a_match a t with Some m => g m | None => BNoList end).
Proof.
  intros [Hm _]. pose proof (am_ok_slot _ t Hm) as Hs. destruct (list_index sch t) as [i|]; [|now rewrite Hs].
  destruct Hs as (k & m & _ & _ & -> & _ & Hsl). rewrite a_view_eq. cbn [cx_lists]. now rewrite Hsl.
Qed.

Lemma step_refines a o :
  a_ok sch a -> lop_wf o = true -> refines (l_step sch (a_view sch a) o) (a_step sch a o).
Proof.
  intros Ha Hwf. destruct o as [t name v|t name v|f v| |k|d|t|t name v|e]; cbn [l_step a_step].
  - now apply mutate_refines.
  - now apply mutate_refines.
  - (* set a value *)
    destruct (nth_error (sc_fields sch) f) as [fd|] eqn:Efd; [|same_state].
    destruct (ty_eqb (fd_ty fd) (type_of v)) eqn:Ety; [|same_state].
    rewrite a_view_eq. cbn [cx_vals cx_lists].
    destruct (view_vals_write (a_vals a) f fd (Some v) Efd) as [-> ->].
    split; [reflexivity|]. split; [|split; discriminate]. split; [exact (proj1 Ha)|].
    intros f' v'. cbn [fst a_vals]. unfold upd_nat. destruct (Nat.eqb_spec f' f) as [->|Hne]; [|apply (proj2 Ha)].
    intros [= <-]. exists fd. split; [exact Efd|]. unfold has_type. cbn [lop_wf] in Hwf. rewrite Hwf.
    apply ty_eqb_eq in Ety. now rewrite Ety, ty_eqb_refl.
  - (* clear *)
    split; [|split; [|split; discriminate]]; cbn [fst snd].
    + rewrite !a_view_eq. cbn [cx_vals cx_lists a_vals a_match]. unfold view_vals, view_lists. rewrite !map_map.
      do 2 f_equal. apply map_ext. intros p. unfold getm. now destruct (a_match a (fst p)) as [[| |s]|].
    + split; [|discriminate]. intros t. cbn [a_match]. pose proof (proj1 Ha t) as Ht.
      destruct (kind_of sch t) as [k|]; [|now rewrite Ht].
      destruct Ht as (m & -> & Hk). exists (emptied m). now destruct m.
  - (* round trip *)
    destruct (roundtrip_identity a k Ha) as (d & -> & ->). same_state.
  - (* load *)
    unfold deserialize_into. cbn [cd_fields cd_lists de_fields]. rewrite new_ctx_view, a_view_eq.
    cbn [cx_lists cx_vals]. rewrite de_lists_view.
    destruct (a_entries sch (a_match (a_new sch)) d) as [m|e] eqn:Ee; [|same_state].
    split; [reflexivity|]. split; [|split; discriminate]. split; [|discriminate].
    exact (a_entries_ok d _ m am_ok_new Ee).
  - (* dump *)
    rewrite (query_refines a t BDump Ha). destruct (a_match a t); same_state.
  - (* probe *)
    rewrite (query_refines a t (fun m => BBool (match_value m name v)) Ha). destruct (a_match a t); same_state.
  - (* execute *)
    destruct (wt_filter sch e) eqn:Ewt; [|same_state].
    destruct (filter_exec_is_denote sch e (a_view sch a) Ewt (ctx_ok_view a Ha) Hf) as (b & -> & ->).
    same_state.
Qed.

Theorem history_refines : forall ops a, a_ok sch a -> forallb lop_wf ops = true ->
  l_run_from sch (a_view sch a) ops = a_run_from sch a ops /\
  ~ In BPanic (a_run_from sch a ops) /\ ~ In BUndef (a_run_from sch a ops).
Proof.
  induction ops as [|o ops IH]; intros a Ha Hwf; cbn [l_run_from a_run_from].
  - now repeat split.
  - cbn [forallb] in Hwf. apply andb_true_iff in Hwf as [Ho Hops].
    destruct (step_refines a o Ha Ho) as (-> & Ha' & Hp & Hu). cbn [fst snd].
    destruct (IH _ Ha' Hops) as (-> & IH2 & IH3). repeat split; intros [H|H]; auto.
Qed.

End Refinement.

Theorem matcher_state_history sch ops :
  lists_distinct sch -> all_optional sch -> fns_ok sch -> forallb lop_wf ops = true ->
  l_run sch ops = a_run sch ops /\ ~ In BPanic (l_run sch ops).
Proof.
  intros Hd Hopt Hf Hwf. unfold l_run, a_run. rewrite (new_ctx_view sch Hd).
  destruct (history_refines sch Hd Hopt Hf ops (a_new sch) (a_ok_new sch) Hwf) as (-> & H2 & _). now split.
Qed.

Definition a_after (sch : scheme) (ops : list lop) : astate :=
  fold_left (fun a o => fst (a_step sch a o)) ops (a_new sch).

Lemma a_after_ok sch : lists_distinct sch -> all_optional sch -> fns_ok sch ->
  forall ops, forallb lop_wf ops = true -> a_ok sch (a_after sch ops).
Proof.
  intros Hd Hopt Hf ops. unfold a_after. generalize (a_new sch), (a_ok_new sch).
  induction ops as [|o ops IH]; intros a Ha Hwf; cbn [fold_left]; [exact Ha|].
  cbn [forallb] in Hwf. apply andb_true_iff in Hwf as [Ho Hops].
  apply IH; [apply (step_refines sch Hd Hopt Hf a o Ha Ho)|exact Hops].
Qed.
