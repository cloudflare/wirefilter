(* C15: the model of the type / scheme encodings (Sem/TypeCodec.v) equals its
   specification (Spec/C15.v), and the specification is coherent: the packed
   form holds 32 layers and is inverse to the type up to that depth, the JSON
   and C-triple forms go one layer further ([type_of_cty_spec],
   [too_deep_rejected]).  Then schemes: reading back what was written gives the
   fields by name ([scheme_roundtrip]); a repeated name is refused
   ([duplicate_rejected]). *)
From Coq Require Import List NArith Bool Lia Arith Permutation Sorted.
From WF Require Import Base.Bytes Lang.Types Sem.TypeCodec Spec.C15 Proofs.ByteKeys.
Import ListNotations.
Local Open Scope N_scope.

Lemma bytes_eqb_neq a b : bytes_eqb a b = false -> a <> b.
Proof. intros H E. subst b. now rewrite bytes_eqb_refl in H. Qed.

Definition is_map (l : layer) : bool := match l with LMap => true | LArray => false end.

Lemma layer_bit_b2n l : layer_bit l = N.b2n (is_map l).
Proof. now destruct l. Qed.

Lemma layer_bit_lt l : layer_bit l < 2.
Proof. destruct l; cbn; lia. Qed.

Lemma shl1 x : N.shiftl x 1 = 2 * x.
Proof. rewrite N.shiftl_mul_pow2. change (2 ^ 1) with 2. lia. Qed.

Lemma shr1 x : N.shiftr x 1 = x / 2.
Proof. rewrite N.shiftr_div_pow2. reflexivity. Qed.

Lemma land1 x : N.land x 1 = x mod 2.
Proof. change 1 with (N.ones 1) at 1. rewrite N.land_ones. reflexivity. Qed.

Lemma lor_bit x l : N.lor (2 * x) (layer_bit l) = 2 * x + layer_bit l.
Proof.
  destruct l; cbn [layer_bit].
  - rewrite N.lor_0_r. lia.
  - destruct x as [|p]; reflexivity.
Qed.

Lemma div2_bit x l : (2 * x + layer_bit l) / 2 = x.
Proof.
  symmetry. apply (N.div_unique _ 2 x (layer_bit l)); [apply layer_bit_lt|reflexivity].
Qed.

Lemma mod2_bit x l : (2 * x + layer_bit l) mod 2 = layer_bit l.
Proof.
  symmetry. apply (N.mod_unique _ 2 x (layer_bit l)); [apply layer_bit_lt|reflexivity].
Qed.

(* the value [ct_push] computes, when no bit is lost *)
Lemma push_layers x l n : x < 2 ^ n -> n < 32 ->
  N.lor (N.shiftl x 1 mod U32) (layer_bit l) = 2 * x + layer_bit l.
Proof.
  intros Hx Hn. rewrite shl1, N.mod_small, lor_bit; [reflexivity|].
  change U32 with (2 * 2 ^ 31).
  assert (2 ^ n <= 2 ^ 31) by (apply N.pow_le_mono_r; lia). lia.
Qed.

Lemma layer_bit_at0 x : layer_bit (layer_at x 0) = x mod 2.
Proof. unfold layer_at. change (N.of_nat 0) with 0. rewrite <- N.bit0_mod. now destruct (N.testbit x 0). Qed.

Lemma pop_layer x : (if N.land x 1 =? 0 then LArray else LMap) = layer_at x 0.
Proof. rewrite land1, <- layer_bit_at0. now destruct (layer_at x 0). Qed.

Lemma build_layers p ls : layers_of (build p ls) = ls /\ prim_of (build p ls) = p.
Proof.
  induction ls as [|l ls [IH1 IH2]]; cbn [build].
  - now destruct p.
  - destruct l; cbn; now rewrite IH1, IH2.
Qed.

Lemma build_of_type t : build (prim_of t) (layers_of t) = t.
Proof. induction t as [| | | |x IH|x IH]; cbn; try reflexivity; now rewrite IH. Qed.

Lemma depth_build p ls : depth (build p ls) = length ls.
Proof. unfold depth. now rewrite (proj1 (build_layers p ls)). Qed.

Lemma bits_value_lt ls : bits_value ls < 2 ^ N.of_nat (length ls).
Proof.
  induction ls as [|l ls IH]; cbn [bits_value length]; [cbn; lia|].
  rewrite Nat2N.inj_succ, N.pow_succ_r'. pose proof (layer_bit_lt l). lia.
Qed.

Lemma layer_at_0 l x : layer_at (layer_bit l + 2 * x) 0 = l.
Proof.
  unfold layer_at. rewrite layer_bit_b2n, N.add_comm.
  change (N.of_nat 0) with 0. rewrite N.testbit_0_r. now destruct l.
Qed.

Lemma layer_at_div2 x i : layer_at x (S i) = layer_at (x / 2) i.
Proof.
  unfold layer_at. rewrite Nat2N.inj_succ, <- N.div2_div, N.div2_spec.
  rewrite N.shiftr_spec by lia. now rewrite N.add_1_r.
Qed.

Lemma layer_at_S l x i : layer_at (layer_bit l + 2 * x) (S i) = layer_at x i.
Proof. now rewrite layer_at_div2, N.add_comm, div2_bit. Qed.

Lemma unpack_bits ls : map (layer_at (bits_value ls)) (seq 0 (length ls)) = ls.
Proof.
  induction ls as [|l ls IH]; [reflexivity|].
  cbn [length seq map bits_value]. rewrite layer_at_0. f_equal.
  rewrite <- seq_shift, map_map. rewrite <- IH at 2.
  apply map_ext. intros i. apply layer_at_S.
Qed.

Lemma spec_unpack_pack t c : spec_pack t = Some c ->
  spec_unpack (ct_layers c) (N.to_nat (ct_len c)) (ct_prim c) = t /\ ct_wf c.
Proof.
  unfold spec_pack. destruct (depth t <=? 32)%nat eqn:Hd; [|discriminate].
  intros H. injection H as <-. cbn [ct_layers ct_len ct_prim]. apply Nat.leb_le in Hd.
  split.
  - unfold spec_unpack. rewrite Nat2N.id. unfold depth. rewrite unpack_bits. apply build_of_type.
  - split; cbn [ct_layers ct_len]; [lia|apply bits_value_lt].
Qed.

Lemma bits_of_unpack n : forall x,
  bits_value (map (layer_at x) (seq 0 n)) = x mod 2 ^ N.of_nat n.
Proof.
  induction n as [|n IH]; intros x.
  - cbn. now rewrite N.mod_1_r.
  - cbn [seq map bits_value]. rewrite <- seq_shift, map_map.
    rewrite (map_ext _ (layer_at (x / 2)) (fun i => layer_at_div2 x i)), IH.
    rewrite Nat2N.inj_succ, N.pow_succ_r', N.mod_mul_r by (try apply N.pow_nonzero; lia).
    now rewrite layer_bit_at0.
Qed.

Lemma spec_pack_unpack c : ct_wf c ->
  spec_pack (spec_unpack (ct_layers c) (N.to_nat (ct_len c)) (ct_prim c)) = Some c.
Proof.
  intros [Hlen Hl]. unfold spec_pack, spec_unpack. rewrite depth_build, map_length, seq_length.
  assert (N.to_nat (ct_len c) <= 32)%nat as Hn by lia.
  apply Nat.leb_le in Hn. rewrite Hn.
  destruct (build_layers (ct_prim c) (map (layer_at (ct_layers c)) (seq 0 (N.to_nat (ct_len c))))) as [-> ->].
  rewrite bits_of_unpack, N2Nat.id, N.mod_small by assumption. now destruct c.
Qed.

Lemma depth_wrap l t : depth (wrap_layer l t) = S (depth t).
Proof. now destruct l. Qed.

Lemma unpack_S x n p :
  spec_unpack x (S n) p = wrap_layer (layer_at x 0) (spec_unpack (x / 2) n p).
Proof.
  unfold spec_unpack. cbn [seq map build]. f_equal.
  rewrite <- seq_shift, map_map. f_equal. apply map_ext. intros i. apply layer_at_div2.
Qed.

Theorem from_type_spec t : from_type t = spec_pack t.
Proof.
  assert (Hstep : forall x l, from_type x = spec_pack x ->
            match from_type x with Some c => ct_push c l | None => None end
            = spec_pack (wrap_layer l x)).
  { intros x l IH. rewrite IH. unfold spec_pack. rewrite depth_wrap.
    destruct (Nat.leb_spec (S (depth x)) 32) as [Hd|Hd].
    - rewrite (proj2 (Nat.leb_le (depth x) 32)) by lia. unfold ct_push. cbn [ct_len ct_layers ct_prim].
      rewrite (proj2 (N.leb_gt 32 _)) by lia.
      rewrite (push_layers _ l (N.of_nat (depth x))) by (try apply bits_value_lt; lia).
      f_equal. f_equal; [destruct l; cbn [wrap_layer layers_of bits_value]; lia|lia|now destruct l].
    - destruct (Nat.leb_spec (depth x) 32); [|reflexivity].
      unfold ct_push. cbn [ct_len]. now rewrite (proj2 (N.leb_le 32 _)) by lia. }
  induction t as [| | | |x IH|x IH]; try reflexivity.
  - exact (Hstep x LArray IH).
  - exact (Hstep x LMap IH).
Qed.

Lemma into_type_fuel_spec n : forall fuel c,
  ct_len c = N.of_nat n -> (n < fuel)%nat ->
  into_type_fuel fuel c = spec_unpack (ct_layers c) n (ct_prim c).
Proof.
  induction n as [|n IH]; intros fuel c Hlen Hf; (destruct fuel as [|f]; [lia|]);
    cbn [into_type_fuel]; unfold ct_pop; rewrite Hlen.
  - reflexivity.
  - assert (0 <? N.of_nat (S n) = true) as -> by (apply N.ltb_lt; lia).
    rewrite pop_layer, shr1, unpack_S. rewrite IH; cbn [ct_len ct_layers ct_prim]; lia || reflexivity.
Qed.

Theorem into_type_spec c : ct_len c < 256 ->
  into_type c = spec_unpack (ct_layers c) (N.to_nat (ct_len c)) (ct_prim c).
Proof.
  intros H. unfold into_type. apply into_type_fuel_spec; [now rewrite N2Nat.id|lia].
Qed.

Theorem into_from_type t c : from_type t = Some c -> into_type c = t /\ ct_wf c.
Proof.
  rewrite from_type_spec. intros H. destruct (spec_unpack_pack t c H) as [Hu Hwf].
  split; [|exact Hwf]. rewrite into_type_spec; [exact Hu|]. destruct Hwf. lia.
Qed.

Theorem from_type_defined t : (depth t <= 32)%nat <-> from_type t <> None.
Proof.
  rewrite from_type_spec. unfold spec_pack. destruct (depth t <=? 32)%nat eqn:Hd.
  - apply Nat.leb_le in Hd. split; [discriminate|auto].
  - apply Nat.leb_gt in Hd. split; [lia|congruence].
Qed.

Theorem from_into_type_inverse t : (depth t <= 32)%nat ->
  exists c, from_type t = Some c /\ into_type c = t /\ ct_wf c.
Proof.
  intros Hd. destruct (from_type t) as [c|] eqn:E.
  - exists c. split; [reflexivity|]. now apply into_from_type.
  - apply from_type_defined in Hd. congruence.
Qed.

Theorem from_into_type c : ct_wf c -> from_type (into_type c) = Some c.
Proof.
  intros Hwf. rewrite from_type_spec, into_type_spec by (destruct Hwf; lia).
  now apply spec_pack_unpack.
Qed.

Theorem too_deep_no_compound t : (32 < depth t)%nat -> from_type t = None.
Proof.
  intros H%Nat.leb_gt. rewrite from_type_spec. unfold spec_pack. now rewrite H.
Qed.

(* the meaning of the bits: bit i, from the least significant end, is the
   i-th layer counted from the outside *)
Theorem packed_bit_order t c i l : from_type t = Some c ->
  nth_error (layers_of t) i = Some l -> N.testbit (ct_layers c) (N.of_nat i) = is_map l.
Proof.
  rewrite from_type_spec. unfold spec_pack. destruct (depth t <=? 32)%nat; [|discriminate].
  intros H. injection H as <-. cbn [ct_layers]. intros Hn.
  enough (layer_at (bits_value (layers_of t)) i = l) as <-
    by (unfold layer_at; now destruct (N.testbit _ _)).
  revert i Hn. induction (layers_of t) as [|l0 ls IH]; intros [|i] Hn; try discriminate;
    cbn [bits_value]; cbn in Hn.
  - injection Hn as <-. apply layer_at_0.
  - rewrite layer_at_S. now apply IH.
Qed.

Lemma prim_code_inv p : prim_of_code (prim_code p) = Some p.
Proof. now destruct p. Qed.

Lemma prim_of_code_inv n p : prim_of_code n = Some p -> prim_code p = n.
Proof.
  unfold prim_of_code.
  destruct (N.eqb_spec n 1) as [->|]; [now intros [= <-]|]. destruct (N.eqb_spec n 2) as [->|]; [now intros [= <-]|].
  destruct (N.eqb_spec n 3) as [->|]; [now intros [= <-]|]. destruct (N.eqb_spec n 4) as [->|]; [now intros [= <-]|].
  discriminate.
Qed.

Lemma prim_of_code_range n : 1 <= n <= 4 -> exists p, prim_of_code n = Some p.
Proof.
  intros H. assert (n = 1 \/ n = 2 \/ n = 3 \/ n = 4) as [ -> | [ -> | [ -> | -> ] ] ] by lia;
    eexists; reflexivity.
Qed.

Theorem cty_of_type_spec t : forall c, from_type t = Some c ->
  cty_of_type t = Some (cty_of_compound c).
Proof.
  assert (Hstep : forall x l,
            (forall c, from_type x = Some c -> cty_of_type x = Some (cty_of_compound c)) ->
            forall c, match from_type x with Some c0 => ct_push c0 l | None => None end = Some c ->
                      match cty_of_type x with Some y => cy_push y l | None => None end
                      = Some (cty_of_compound c)).
  { intros x l IH c. destruct (from_type x) as [c0|]; [|discriminate].
    rewrite (IH c0 eq_refl). unfold ct_push. destruct (32 <=? ct_len c0) eqn:H32; [discriminate|].
    apply N.leb_gt in H32. intros H. injection H as <-.
    unfold cy_push, cty_of_compound. cbn [cy_len cy_layers cy_prim ct_len ct_layers ct_prim].
    assert (ct_len c0 =? 255 = false) as -> by (apply N.eqb_neq; lia). reflexivity. }
  induction t as [| | | |x IH|x IH]; intros c; cbn [from_type cty_of_type];
    try (intros H; injection H as <-; reflexivity).
  - exact (Hstep x LArray IH c).
  - exact (Hstep x LMap IH c).
Qed.

Lemma depth_unpack x n p : depth (spec_unpack x n p) = n.
Proof. unfold spec_unpack. now rewrite depth_build, map_length, seq_length. Qed.

Lemma type_of_cty_fuel_spec n : forall fuel y p,
  cy_len y = N.of_nat n -> (n <= 33)%nat -> (n < fuel)%nat -> prim_of_code (cy_prim y) = Some p ->
  type_of_cty_fuel fuel y = Some (spec_unpack (cy_layers y) n p).
Proof.
  induction n as [|n IH]; intros fuel y p Hlen Hn Hf Hp; (destruct fuel as [|f]; [lia|]);
    cbn [type_of_cty_fuel]; unfold cy_pop; rewrite Hlen.
  - cbn [N.ltb N.compare]. change (0 <? N.of_nat 0) with false. cbv iota. rewrite Hp. reflexivity.
  - assert (0 <? N.of_nat (S n) = true) as -> by (apply N.ltb_lt; lia).
    rewrite pop_layer, shr1.
    rewrite (IH f _ p); cbn [cy_len cy_layers cy_prim]; try lia; try assumption.
    destruct (from_into_type_inverse (spec_unpack (cy_layers y / 2) n p)) as (k & -> & -> & _);
      [rewrite depth_unpack; lia|]. now rewrite unpack_S.
Qed.

(* a C triple of at most 33 layers with a valid code converts to the type its
   bits spell (33: the outer layer around a full packed element) *)
Theorem type_of_cty_spec y p : cy_len y <= 33 -> prim_of_code (cy_prim y) = Some p ->
  type_of_cty y = Some (spec_unpack (cy_layers y) (N.to_nat (cy_len y)) p).
Proof.
  intros Hl Hp. unfold type_of_cty. apply type_of_cty_fuel_spec; try assumption; lia.
Qed.

Theorem ctype_matches_compound t c : from_type t = Some c ->
  cty_of_type t = Some (cty_of_compound c) /\ type_of_cty (cty_of_compound c) = Some t.
Proof.
  intros H. split; [now apply cty_of_type_spec|].
  pose proof H as Hs. rewrite from_type_spec in Hs. destruct (spec_unpack_pack t c Hs) as [Hu [Hlen _]].
  rewrite (type_of_cty_spec _ (ct_prim c)); cbn [cty_of_compound cy_len cy_layers cy_prim].
  - now rewrite Hu.
  - lia.
  - apply prim_code_inv.
Qed.

Theorem ctype_roundtrip y : cy_wf y ->
  exists t, type_of_cty y = Some t /\ cty_of_type t = Some y /\ depth t = N.to_nat (cy_len y).
Proof.
  intros (Hlen & Hl & Hp). destruct (prim_of_code_range _ Hp) as [p Hpc].
  set (c := mk_ctype (cy_layers y) (cy_len y) p).
  assert (ct_wf c) as Hwf by (split; assumption).
  assert (Hf : from_type (spec_unpack (cy_layers y) (N.to_nat (cy_len y)) p) = Some c).
  { rewrite from_type_spec. exact (spec_pack_unpack c Hwf). }
  exists (spec_unpack (cy_layers y) (N.to_nat (cy_len y)) p).
  split; [apply type_of_cty_spec; [lia|exact Hpc]|]. split; [|apply depth_unpack].
  rewrite (cty_of_type_spec _ c Hf). unfold cty_of_compound. cbn [c ct_layers ct_len ct_prim].
  rewrite (prim_of_code_inv _ _ Hpc). now destruct y.
Qed.

Lemma variant_of_spec s :
  variant_of s = if bytes_eqb s n_Array then Some VArrayV
                 else if bytes_eqb s n_Map then Some VMapV
                 else option_map VPrim (prim_named s).
Proof.
  unfold variant_of, prim_named.
  destruct (bytes_eqb_spec s n_Bool) as [->|]; [reflexivity|]. destruct (bytes_eqb_spec s n_Int) as [->|]; [reflexivity|].
  destruct (bytes_eqb_spec s n_Ip) as [->|]; [reflexivity|]. destruct (bytes_eqb_spec s n_Bytes) as [->|]; [reflexivity|].
  now destruct (bytes_eqb s n_Array), (bytes_eqb s n_Map).
Qed.

Lemma wrap_compound_spec l v :
  wrap_compound l (spec_type_of_json v) =
  match option_map (wrap_layer l) (json_type v) with
  | Some t => if (depth t <=? 33)%nat then Ok t else Err
  | None => Err
  end.
Proof.
  unfold spec_type_of_json. destruct (json_type v) as [t|]; cbn [option_map]; [|reflexivity].
  rewrite depth_wrap. change (S (depth t) <=? 33)%nat with (depth t <=? 32)%nat.
  destruct (Nat.leb_spec (depth t) 32) as [H|H].
  - rewrite (proj2 (Nat.leb_le (depth t) 33)) by lia.
    destruct (from_into_type_inverse t H) as (c & E & Hi & _). cbn [wrap_compound]. now rewrite E, Hi.
  - destruct (depth t <=? 33)%nat; cbn [wrap_compound]; now rewrite ?(too_deep_no_compound t H).
Qed.

Lemma prim_depth p : (depth (prim_ty p) <=? 33)%nat = true.
Proof. now destruct p. Qed.

Theorem type_of_json_spec : forall j, type_of_json j = spec_type_of_json j.
Proof.
  fix IH 1. intros j. destruct j as [|b|z|s|l|l]; try reflexivity.
  - clear IH. cbn [type_of_json]. unfold spec_type_of_json. cbn [json_type]. rewrite variant_of_spec.
    destruct (bytes_eqb_spec s n_Array) as [->|]; [reflexivity|]. destruct (bytes_eqb_spec s n_Map) as [->|]; [reflexivity|].
    destruct (prim_named s) as [p|]; cbn [option_map]; [|reflexivity]. now rewrite prim_depth.
  - destruct l as [|[k v] [|e r]]; [reflexivity| |reflexivity].
    cbn [type_of_json]. rewrite variant_of_spec.
    unfold spec_type_of_json at 1. cbn [json_type].
    destruct (bytes_eqb k n_Array).
    { rewrite (IH v). apply wrap_compound_spec. }
    destruct (bytes_eqb k n_Map).
    { rewrite (IH v). apply wrap_compound_spec. }
    clear IH. destruct (prim_named k) as [p|]; cbn [option_map]; [|reflexivity].
    destruct v; try reflexivity. now rewrite prim_depth.
Qed.

Lemma json_type_to_json t : json_type (type_to_json t) = Some t.
Proof.
  induction t as [| | | |x IH|x IH]; try reflexivity; cbn [type_to_json json_type].
  - rewrite bytes_eqb_refl, IH. reflexivity.
  - change (bytes_eqb n_Map n_Array) with false. cbv iota. rewrite bytes_eqb_refl, IH. reflexivity.
Qed.

Lemma spec_type_roundtrip t : (depth t <= 33)%nat -> spec_type_of_json (type_to_json t) = Ok t.
Proof. intros H%Nat.leb_le. unfold spec_type_of_json. now rewrite json_type_to_json, H. Qed.

Theorem type_json_roundtrip t : (depth t <= 33)%nat -> type_of_json (type_to_json t) = Ok t.
Proof. rewrite type_of_json_spec. apply spec_type_roundtrip. Qed.

Theorem too_deep_rejected t : (33 < depth t)%nat -> type_of_json (type_to_json t) = Err.
Proof.
  intros H. rewrite type_of_json_spec. unfold spec_type_of_json. rewrite json_type_to_json.
  apply Nat.leb_gt in H. now rewrite H.
Qed.

Lemma json_as_value_type t : json_as_value (type_to_json t) = type_to_json t.
Proof.
  induction t as [| | | |x IH|x IH]; try reflexivity; cbn [type_to_json json_as_value map];
    rewrite IH; reflexivity.
Qed.

Definition the_type (t : option ty) (vs : list json) : result ty :=
  match t, vs with
  | Some t', [] => Ok t'
  | None, [tv] => spec_type_of_json tv
  | _, _ => Err
  end.

Definition the_bool (o : option bool) (vs : list json) : result bool :=
  match o, vs with
  | Some b, [] => Ok b
  | None, [JBool b] => Ok b
  | _, _ => Err
  end.

Definition pair_res (a : result ty) (b : result bool) : result (ty * bool) :=
  match a with
  | Ok t => match b with Ok o => Ok (t, o) | Err => Err end
  | Err => Err
  end.

Lemma pair_res_err_r a : pair_res a Err = Err.
Proof. now destruct a. Qed.

Lemma field_of_entries_spec es : forall t o,
  field_of_entries es t o =
  pair_res (the_type t (values_of n_type es)) (the_bool o (values_of n_optional es)).
Proof.
  induction es as [|[k v] r IH]; intros t o.
  - destruct t, o; reflexivity.
  - cbn [field_of_entries]. unfold values_of. cbn [filter fst].
    destruct (bytes_eqb_spec k n_type) as [->|].
    + change (bytes_eqb n_type n_optional) with false. cbn [map snd].
      fold (values_of n_type r). fold (values_of n_optional r).
      destruct t as [t'|]; [reflexivity|].
      rewrite type_of_json_spec. destruct (spec_type_of_json v) as [t'|] eqn:Ev.
      * rewrite IH. unfold the_type. destruct (values_of n_type r); [now rewrite Ev|reflexivity].
      * unfold the_type. destruct (values_of n_type r); [now rewrite Ev|reflexivity].
    + destruct (bytes_eqb k n_optional) eqn:EO.
      * cbn [map snd]. fold (values_of n_type r). fold (values_of n_optional r).
        destruct o as [b|]; [now rewrite pair_res_err_r|].
        destruct v; try (cbn [the_bool]; now rewrite pair_res_err_r).
        rewrite IH. unfold the_bool. destruct (values_of n_optional r); reflexivity.
      * fold (values_of n_type r). fold (values_of n_optional r). apply IH.
Qed.

Theorem field_of_json_spec j : field_of_json j = spec_field_of_json j.
Proof.
  destruct j as [|b|z|s|l|es]; try reflexivity.
  - destruct l as [|t [|o [|x r]]]; try reflexivity.
    destruct o; try reflexivity. cbn [field_of_json spec_field_of_json].
    now rewrite type_of_json_spec.
  - cbn [field_of_json spec_field_of_json]. rewrite field_of_entries_spec.
    destruct (values_of n_type es) as [|tv [|tv2 vt]]; cbn [the_type pair_res]; try reflexivity.
    destruct (values_of n_optional es) as [|ov vo]; [apply pair_res_err_r|].
    destruct ov, vo; cbn [the_bool]; apply pair_res_err_r || reflexivity.
Qed.

Definition fresh (acc : list field_def) (k : bytes) : bool :=
  negb (existsb (fun g => bytes_eqb (fd_name g) k) acc).

Lemma forallb_fresh_snoc acc f ks :
  forallb (fresh (acc ++ [f])) ks =
  forallb (fresh acc) ks && negb (existsb (bytes_eqb (fd_name f)) ks).
Proof.
  induction ks as [|x ks IH]; [reflexivity|]. cbn [forallb existsb]. rewrite IH.
  assert (fresh (acc ++ [f]) x = fresh acc x && negb (bytes_eqb (fd_name f) x)) as ->.
  { unfold fresh. rewrite existsb_app. cbn [existsb]. now rewrite orb_false_r, negb_orb. }
  destruct (fresh acc x), (bytes_eqb (fd_name f) x), (forallb (fresh acc) ks),
    (existsb (bytes_eqb (fd_name f)) ks); reflexivity.
Qed.

Lemma fresh_exists acc k :
  existsb (fun g => bytes_eqb (fd_name g) k) acc = negb (fresh acc k).
Proof. unfold fresh. now rewrite negb_involutive. Qed.

(* SchemeBuilder: a repeated name is refused *)
Lemma sb_add_fields_spec fs : forall acc,
  sb_add_fields fs acc =
  if forallb (fresh acc) (map fd_name fs) && distinctb (map fd_name fs) then Ok (acc ++ fs) else Err.
Proof.
  induction fs as [|f r IH]; intros acc.
  - cbn. now rewrite app_nil_r.
  - cbn [sb_add_fields map forallb distinctb]. unfold sb_add_field. rewrite fresh_exists.
    destruct (fresh acc (fd_name f)); cbn [negb]; [|reflexivity].
    rewrite IH, forallb_fresh_snoc, <- app_assoc. cbn [app andb].
    destruct (forallb (fresh acc) (map fd_name r)), (existsb (bytes_eqb (fd_name f)) (map fd_name r)),
      (distinctb (map fd_name r)); reflexivity.
Qed.

Theorem builder_spec fs :
  sb_add_fields fs [] = if distinctb (map fd_name fs) then Ok fs else Err.
Proof.
  rewrite sb_add_fields_spec.
  assert (forallb (fresh []) (map fd_name fs) = true) as -> by (apply forallb_forall; reflexivity).
  reflexivity.
Qed.

Lemma distinctb_NoDup l : distinctb l = true <-> NoDup l.
Proof.
  induction l as [|x l IH]; cbn [distinctb].
  - split; [constructor|reflexivity].
  - rewrite andb_true_iff, negb_true_iff, IH. split.
    + intros [Hx Hl]. constructor; [|assumption]. intros Hin. apply existsb_In in Hin. congruence.
    + intros H. inversion H as [|y l' Hx Hl]; subst. split; [|assumption].
      destruct (existsb (bytes_eqb x) l) eqn:E; [|reflexivity]. apply existsb_In in E. contradiction.
Qed.

Lemma spec_fields_names es : forall fs, spec_fields es = Ok fs -> map fd_name fs = map fst es.
Proof.
  induction es as [|[k v] r IH]; intros fs; cbn [spec_fields].
  - intros H. now injection H as <-.
  - destruct (spec_field_of_json v) as [[t o]|]; [|discriminate].
    destruct (spec_fields r) as [fs'|]; [|discriminate].
    intros H. injection H as <-. cbn. f_equal. now apply IH.
Qed.

(* reading a scheme document: read the fields, then build *)
Lemma scheme_add_entries_fields es : forall acc,
  scheme_add_entries es acc = match spec_fields es with Ok fs => sb_add_fields fs acc | Err => Err end.
Proof.
  induction es as [|[k v] r IH]; intros acc; [reflexivity|].
  cbn [scheme_add_entries spec_fields]. rewrite field_of_json_spec.
  destruct (spec_field_of_json v) as [[t o]|]; [|reflexivity].
  destruct (spec_fields r) as [fs|]; cbn [sb_add_fields]; destruct (sb_add_field acc _); auto.
Qed.

Theorem scheme_of_json_spec j : scheme_of_json j = spec_scheme_of_json j.
Proof.
  destruct j as [|b|z|s|l|es]; try reflexivity.
  cbn [scheme_of_json spec_scheme_of_json]. rewrite scheme_add_entries_fields.
  destruct (spec_fields es) as [fs|] eqn:E; [|now destruct (distinctb _)].
  now rewrite builder_spec, (spec_fields_names _ _ E).
Qed.

(* what a scheme document is accepted as: its keys, all different, in order *)
Theorem scheme_of_json_names es fs : scheme_of_json (JObj es) = Ok fs ->
  NoDup (map fst es) /\ map fd_name fs = map fst es.
Proof.
  rewrite scheme_of_json_spec. cbn [spec_scheme_of_json].
  destruct (distinctb (map fst es)) eqn:Hd; [|discriminate].
  intros H. split; [now apply distinctb_NoDup|now apply spec_fields_names].
Qed.

Theorem duplicate_rejected es : ~ NoDup (map fst es) -> scheme_of_json (JObj es) = Err.
Proof.
  intros Hn. destruct (scheme_of_json (JObj es)) as [fs|] eqn:E; [|reflexivity].
  now apply scheme_of_json_names in E.
Qed.

Definition field_form_ok (vj : ty -> bool -> json) : Prop :=
  forall t o, (depth t <= 33)%nat -> spec_field_of_json (vj t o) = Ok (t, o).

Definition depth_ok (f : field_def) : Prop := (depth (fd_ty f) <= 33)%nat.

(* one "type" member, one "optional" member, in whatever order *)
Lemma field_form_members t o es : (depth t <= 33)%nat ->
  values_of n_type es = [type_to_json t] -> values_of n_optional es = [JBool o] ->
  spec_field_of_json (JObj es) = Ok (t, o).
Proof. intros H Ht Ho. cbn [spec_field_of_json]. now rewrite Ht, Ho, spec_type_roundtrip. Qed.

Lemma field_form_written : field_form_ok field_to_json.
Proof. intros t o H. now apply field_form_members. Qed.

(* the same member list as a sorted map *)
Definition field_to_value (t : ty) (o : bool) : json :=
  JObj [(n_optional, JBool o); (n_type, type_to_json t)].

Lemma field_form_value : field_form_ok field_to_value.
Proof. intros t o H. now apply field_form_members. Qed.

(* a field list as an association list on the names *)
Definition keyed {B} (g : field_def -> B) (f : field_def) : bytes * B := (fd_name f, g f).
Definition form (vj : ty -> bool -> json) (f : field_def) : json := vj (fd_ty f) (fd_optional f).

Lemma spec_fields_enc vj gs : field_form_ok vj -> Forall depth_ok gs ->
  spec_fields (map (keyed (form vj)) gs) = Ok gs.
Proof.
  intros Hvj HF. induction HF as [|f gs Hf Hgs IH]; [reflexivity|].
  cbn [map spec_fields keyed]. unfold form at 1. rewrite (Hvj _ _ Hf), IH. now destruct f.
Qed.

Lemma scheme_of_enc vj gs : field_form_ok vj -> Forall depth_ok gs ->
  scheme_of_json (JObj (map (keyed (form vj)) gs)) = if distinctb (map fd_name gs) then Ok gs else Err.
Proof.
  intros Hvj HF. rewrite scheme_of_json_spec. cbn [spec_scheme_of_json].
  rewrite map_map. cbn [keyed fst]. now rewrite spec_fields_enc.
Qed.

Theorem scheme_roundtrip_text fs : Forall depth_ok fs ->
  scheme_of_json (scheme_to_json fs) = if distinctb (map fd_name fs) then Ok fs else Err.
Proof. exact (scheme_of_enc field_to_json fs field_form_written). Qed.

(* through a value tree: [fd_insert] is [bt_insert] on the names *)
Lemma fd_insert_keyed {B} (g : field_def -> B) f m :
  map (keyed g) (fd_insert f m) = bt_insert (fd_name f) (g f) (map (keyed g) m).
Proof.
  induction m as [|h m IH]; [reflexivity|]. cbn [map fd_insert]. change (keyed g h) with (fd_name h, g h). cbn [bt_insert].
  destruct (bytes_compare (fd_name f) (fd_name h)); cbn [map]; try reflexivity. now rewrite IH.
Qed.

Lemma fields_by_name_keyed {B} (g : field_def -> B) fs :
  map (keyed g) (fields_by_name fs) = bt_of_list (map (keyed g) fs).
Proof. exact (bt_add_fold (keyed g) fd_insert (map (keyed g)) (fd_insert_keyed g) fs []). Qed.

Lemma keyed_self l : map snd (map (keyed (fun f => f)) l) = l.
Proof. rewrite map_map. apply map_id. Qed.

Lemma json_as_value_scheme fs :
  json_as_value (scheme_to_json fs) = JObj (map (keyed (form field_to_value)) (fields_by_name fs)).
Proof.
  unfold scheme_to_json. cbn [json_as_value]. rewrite fields_by_name_keyed, map_map. do 2 f_equal.
  apply map_ext. intros f. unfold keyed, form, field_to_json, field_to_value. cbn [json_as_value map].
  now rewrite json_as_value_type.
Qed.

Definition names (fs : list field_def) : list bytes := map fd_name fs.

(* by name: the same fields, in ascending order of their names *)
Theorem fields_by_name_perm fs : NoDup (names fs) -> Permutation fs (fields_by_name fs).
Proof.
  intros H. rewrite <- (keyed_self fs) at 1. rewrite <- (keyed_self (fields_by_name fs)), fields_by_name_keyed.
  apply Permutation_map, bt_add_perm. now rewrite map_map.
Qed.

Definition name_lt (a b : field_def) : Prop := bytes_compare (fd_name a) (fd_name b) = Lt.

Theorem fields_by_name_sorted fs : Sorted name_lt (fields_by_name fs).
Proof.
  assert (H : ssorted (map (keyed (fun f => f)) (fields_by_name fs))).
  { rewrite fields_by_name_keyed. now apply bt_add_ssorted. }
  induction (fields_by_name fs) as [|f l IH]; [constructor|]. destruct H as [Hb H].
  constructor; [auto|]. destruct l; constructor. now inversion Hb.
Qed.

Theorem scheme_roundtrip e fs : Forall depth_ok fs -> distinctb (names fs) = true ->
  scheme_of_json (supply e (scheme_to_json fs)) = Ok (supplied_order e fs).
Proof.
  intros HF Hd.
  assert (scheme_of_json (scheme_to_json fs) = Ok fs) as Hdirect.
  { rewrite scheme_roundtrip_text by assumption. unfold names in Hd. now rewrite Hd. }
  destruct e; try exact Hdirect.
  cbn [supply supplied_order]. rewrite json_as_value_scheme.
  pose proof (proj1 (distinctb_NoDup _) Hd) as Hnd.
  pose proof (fields_by_name_perm fs Hnd) as Hp.
  rewrite scheme_of_enc.
  - assert (distinctb (map fd_name (fields_by_name fs)) = true) as ->; [|reflexivity].
    apply distinctb_NoDup. eapply Permutation_NoDup; [|exact Hnd]. now apply Permutation_map.
  - exact field_form_value.
  - eapply Permutation_Forall; eassumption.
Qed.
