(* The harness function library satisfies the assumptions the main theorem makes
   about user functions ([fn_ok]); the built-in concat meets its specification. *)
From Coq Require Import List String.
From WF Require Import Base.Bytes Lang.Types Sem.Funs Proofs.ValueProofs Proofs.ExecProofs
     Proofs.CallProofs Proofs.ByteKeys.
Import ListNotations.

Definition present_bytes (l : list vres) : list bytes :=
  flat_map (fun r => match r with VOk (VBytes b) => [b] | _ => [] end) l.
Definition present_arrays (l : list vres) : list (list value) :=
  flat_map (fun r => match r with VOk (VArray _ x) => [x] | _ => [] end) l.

Lemma concat_bytes_spec l : forall acc,
  Forall (fun r => vres_typed r TBytes = true) l ->
  concat_bytes acc l = acc ++ List.concat (present_bytes l).
Proof.
  induction l as [|r l IH]; intros acc H; cbn; [now rewrite app_nil_r|].
  inversion H as [|? ? Hr Hl]; subst. destruct r as [v|t]; [|now apply IH].
  cbn in Hr. apply has_type_prim_inv in Hr. destruct Hr as (b & ->). cbn.
  rewrite IH by exact Hl. now rewrite app_assoc.
Qed.

(* bytes: the present arguments joined in order, absent iff all are absent *)
Theorem concat_bytes_args l :
  Forall (fun r => vres_typed r TBytes = true) l ->
  concat_impl l = Some (match present_bytes l with
                        | [] => None
                        | _ => Some (VBytes (List.concat (present_bytes l)))
                        end).
Proof.
  induction l as [|r l IH]; intros H; [reflexivity|].
  inversion H as [|? ? Hr Hl]; subst. destruct r as [v|t]; cbn [concat_impl]; [|now rewrite IH].
  apply has_type_prim_inv in Hr. destruct Hr as (b & ->). now rewrite concat_bytes_spec.
Qed.

Lemma concat_array_spec t l : forall acc,
  Forall (fun r => vres_typed r (TArray t) = true) l ->
  concat_array acc l = Some (acc ++ List.concat (present_arrays l)).
Proof.
  induction l as [|r l IH]; intros acc H; cbn; [now rewrite app_nil_r|].
  inversion H as [|? ? Hr Hl]; subst. destruct r as [v|t']; [|now apply IH].
  cbn in Hr. destruct (has_type_array _ _ Hr) as (x & -> & _). cbn.
  rewrite IH by exact Hl. now rewrite app_assoc.
Qed.

Lemma present_arrays_typed t l :
  Forall (fun r => vres_typed r (TArray t) = true) l ->
  Forall (fun v => has_type v t = true) (List.concat (present_arrays l)).
Proof.
  intros H. apply Forall_concat, Forall_flat_map. eapply Forall_impl; [|exact H]. intros [v|t'] Hr; [|constructor].
  destruct (has_type_array _ _ Hr) as (x & -> & Hx). now constructor.
Qed.

Theorem concat_array_args t l :
  Forall (fun r => vres_typed r (TArray t) = true) l ->
  concat_impl l = Some (match present_arrays l with
                        | [] => None
                        | _ => Some (VArray t (List.concat (present_arrays l)))
                        end).
Proof.
  induction l as [|r l IH]; intros H; [reflexivity|].
  inversion H as [|? ? Hr Hl]; subst. destruct r as [v|t']; cbn [concat_impl]; [|now rewrite IH].
  destruct (has_type_array _ _ Hr) as (x & -> & Hx).
  rewrite (concat_array_spec t l x Hl), typed_type_of; [reflexivity|].
  apply Forall_app. split; [exact Hx|now apply present_arrays_typed].
Qed.

Lemma concat_fn_ok d : fn_variadic_same d = true -> fn_impl d = concat_impl -> fn_opt_params d = [] -> fn_ok d.
Proof.
  intros Hv Hi Ho. unfold fn_ok. rewrite Hv, Hi, Ho. split; [constructor|].
  intros t vs Ht Hall. destruct t; try destruct Ht.
  - rewrite concat_bytes_args by exact Hall. eexists; split; [reflexivity|].
    destruct (present_bytes vs); [exact I|]. reflexivity.
  - rewrite (concat_array_args t vs Hall). eexists; split; [reflexivity|].
    destruct (present_arrays vs) eqn:E; [exact I|]. rewrite <- E.
    apply has_type_array_intro. now apply present_arrays_typed.
Qed.

(* the implementation computes on the arguments at hand: its result is read off and typed by evaluation *)
Ltac returns := (eexists; split; [reflexivity|]; cbn; auto).

Lemma simple_fn_ok params opts ret impl :
  Forall (fun p => value_wf (snd p) = true) opts ->
  (forall vs, Forall2 (fun r kt => vres_typed r (snd kt) = true) vs (sig_of (simple params opts ret impl)) ->
     exists r, impl vs = Some r /\ match r with Some v => has_type v ret = true | None => True end) ->
  fn_ok (simple params opts ret impl).
Proof. intros H1 H2. split; assumption. Qed.

Lemma first_ok_typed vs kt rest :
  Forall2 (fun r (kt : arg_kind * ty) => vres_typed r (snd kt) = true) vs (kt :: rest) ->
  exists r, first_ok vs = Some r /\ match r with Some v => has_type v (snd kt) = true | None => True end.
Proof. inversion 1 as [|[v|t] ? ? ? Hr _]; subst; cbn in *; returns. Qed.

(* a chain of lookups yields only what one of its branches holds *)
Lemma if_some {A} (P : A -> Prop) (c : bool) (x : A) (rest : option A) :
  (c = true -> P x) -> (forall y, rest = Some y -> P y) -> forall y, (if c then Some x else rest) = Some y -> P y.
Proof. destruct c; intros H1 H2 y H; [injection H as <-; auto|auto]. Qed.

Theorem lib_fn_ok name d : lib_fn name = Some d -> name <> bytes_of_string "boom" -> fn_ok d.
Proof.
  unfold lib_fn. intros H Hnb. revert d H.
  repeat (apply if_some; [intros ?|]); try discriminate.
  all: try (apply concat_fn_ok; reflexivity);
    try (apply simple_fn_ok; [repeat constructor|]; intros vs Hvs;
         try apply (first_ok_typed vs _ _ Hvs); clear Hvs).
  (* the others return a value of the declared type whatever they are given *)
  - (* lower *) destruct vs as [|[[]|]]; returns.
  - (* len *) destruct vs as [|[[]|]]; returns.
  - (* nonempty *) destruct vs as [|[[| [] | | | |]|]]; returns.
  - (* show *) returns.
  - (* tagb *) destruct vs as [|[[[]| | | | |]|]]; returns.
  - (* count *) destruct vs as [|[[]|]]; returns.
  - (* join2 *) destruct vs as [|[[]|] vs]; try returns. destruct vs as [|[[]|]]; returns.
  - (* tally *) destruct vs as [|[[]|]]; returns.
  - (* tally0 *) returns.
  - (* boom is excluded *) now elim Hnb; apply bytes_eqb_iff.
Qed.
