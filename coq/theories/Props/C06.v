(* C06 — Every literal form denotes its documented value; malformed forms are
   rejected.  Printers and side conditions: Spec/C06.v; lexers: Parse/Lex.v.
   This file contains only the property theorems, each a lemma of Proofs/Lex*.v or a few lines from one. *)
From Coq Require Import List ZArith Bool Lia.
From WF Require Import Sem.RangeSet Lang.Ast Parse.Lex Spec.C06 Proofs.LexProofs.
Import ListNotations.
Open Scope Z_scope.

Theorem C06_int_dec_roundtrip : forall v rest, in_i64 v -> int_follow_ok rest ->
  lex_int (print_dec v ++ rest) = LOk v rest.
Proof. intros v rest Hv Hf. apply (int_roundtrip IDec); [assumption|exact I|assumption]. Qed.

Theorem C06_int_hex_roundtrip : forall upper pad v rest, 0 <= v <= i64_max -> int_follow_ok rest ->
  lex_int (print_int (IHex upper pad) v ++ rest) = LOk v rest.
Proof.
  intros u pad v rest Hv Hf. apply int_roundtrip; [unfold in_i64, i64_min; lia|cbn; lia|assumption].
Qed.

Theorem C06_int_oct_roundtrip : forall pad v rest, 0 <= v <= i64_max -> int_follow_ok rest ->
  lex_int (print_int (IOct pad) v ++ rest) = LOk v rest.
Proof.
  intros pad v rest Hv Hf. apply int_roundtrip; [unfold in_i64, i64_min; lia|cbn; lia|assumption].
Qed.

Theorem C06_int_out_of_range_rejected : forall f v rest, ~ in_i64 v -> int_form_ok f v -> int_follow_ok rest ->
  exists at_ len, lex_int (print_int f v ++ rest) = LErr EParseInt at_ len.
Proof. exact int_out_of_range_rejected. Qed.

Theorem C06_int_range_roundtrip : forall f1 f2 a b rest,
  in_i64 a -> in_i64 b -> int_form_ok f1 a -> int_form_ok f2 b -> a <= b -> int_follow_ok rest ->
  lex_int_range (print_int_range f1 f2 a b ++ rest) = LOk (a, b) rest.
Proof. exact int_range_roundtrip. Qed.

Theorem C06_reversed_range_rejected : forall f1 f2 a b rest,
  in_i64 a -> in_i64 b -> int_form_ok f1 a -> int_form_ok f2 b -> b < a -> int_follow_ok rest ->
  lex_int_range (print_int_range f1 f2 a b ++ rest) =
  LErr EIncompatibleRangeBounds (print_int_range f1 f2 a b ++ rest) (length (print_int_range f1 f2 a b)).
Proof.
  intros f1 f2 a b rest Ha Hb H1 H2 Hab Hf. now rewrite int_range_lex, (proj2 (Z.ltb_lt b a)) by assumption.
Qed.

Theorem C06_int_single_in_list : forall f v rest,
  in_i64 v -> int_form_ok f v -> int_follow_ok rest -> no_dotdot_next rest ->
  lex_int_range (print_int f v ++ rest) = LOk (v, v) rest.
Proof. exact int_single_as_range. Qed.

(* every byte string, every escape form per byte *)
Theorem C06_quoted_roundtrip : forall l rest, styles_ok l ->
  lex_bytes (print_quoted l ++ rest) = LOk (map snd l, FQuoted) rest.
Proof. exact quoted_roundtrip. Qed.

Theorem C06_bad_escape_rejected : forall l r, styles_ok l -> ~ good_escape r ->
  exists k at_ len, lex_bytes (34%N :: print_qbody l ++ 92%N :: r) = LErr k at_ len.
Proof. exact bad_escape_rejected. Qed.

Theorem C06_unterminated_rejected : forall l, styles_ok l ->
  lex_bytes (34%N :: print_qbody l) = LErr EMissingEndingQuote (print_qbody l) (length (print_qbody l)).
Proof. intros l H. now rewrite lex_bytes_quoted, quoted_unterminated. Qed.

Theorem C06_raw_roundtrip : forall n body rest, (n <= 255)%nat -> utf8_chars body -> no_early_close n body ->
  lex_bytes (print_raw n body ++ rest) = LOk (body, FRaw (N.of_nat n)) rest.
Proof. exact raw_roundtrip. Qed.

(* the same for what the model's from_utf8 automaton accepts *)
Theorem C06_raw_roundtrip_utf8 : forall n body rest,
  (n <= 255)%nat -> utf8_valid body = true -> no_early_close n body ->
  lex_bytes (print_raw n body ++ rest) = LOk (body, FRaw (N.of_nat n)) rest.
Proof. exact raw_roundtrip_utf8. Qed.

Theorem C06_raw_256_rejected : forall n s, (255 < n)%nat ->
  lex_bytes (114%N :: hashes n ++ 34%N :: s) =
  LErr EInvalidRawStringHashCount (hashes n ++ 34%N :: s) (length (hashes n ++ 34%N :: s)).
Proof. exact raw_256_rejected. Qed.

Theorem C06_hexpairs_roundtrip : forall u1 u2 b0 l rest,
  (b0 < 256)%N -> hextail_ok l -> l <> [] -> hexpairs_follow_ok rest ->
  lex_bytes (print_hexpairs u1 u2 b0 l ++ rest) = LOk (b0 :: map snd l, FByte) rest.
Proof. exact hexpairs_roundtrip. Qed.

Theorem C06_ipv4_roundtrip : forall a b c d rest, octet a -> octet b -> octet c -> octet d -> ip_follow_ok rest ->
  lex_ip (print_v4 a b c d ++ rest) = LOk (V4 (v4_of a b c d)) rest.
Proof. exact ipv4_roundtrip. Qed.

Theorem C06_ipv6_full_roundtrip : forall upper gs rest,
  length gs = 8%nat -> Forall group16 gs -> ip_follow_ok rest ->
  lex_ip (print_v6_full upper gs ++ rest) = LOk (V6 (v6_of gs 0)) rest.
Proof. exact ipv6_full_roundtrip. Qed.

(* all prefix lengths, both families *)
Theorem C06_cidr_roundtrip : forall t a n rest, addr_text t a -> 0 <= n <= ip_bits a ->
  ip_num a mod 2 ^ (ip_bits a - n) = 0 -> ip_follow_ok rest ->
  lex_ip_range (t ++ 47%N :: print_dec n ++ rest) = LOk (cidr_item a n) rest.
Proof. exact cidr_roundtrip. Qed.

Theorem C06_host_bits_rejected : forall t a n rest, addr_text t a -> 0 <= n <= ip_bits a ->
  ip_num a mod 2 ^ (ip_bits a - n) <> 0 -> ip_follow_ok rest ->
  lex_ip_range (t ++ 47%N :: print_dec n ++ rest) =
  LErr EParseNetwork (t ++ 47%N :: print_dec n ++ rest) (length t).
Proof. exact host_bits_rejected. Qed.

Theorem C06_prefix_too_long_rejected : forall t a n rest, addr_text t a -> ip_bits a < n < 256 ->
  ip_follow_ok rest ->
  lex_ip_range (t ++ 47%N :: print_dec n ++ rest) =
  LErr EParseNetwork (t ++ 47%N :: print_dec n ++ rest) (length (t ++ 47%N :: print_dec n)).
Proof.
  intros t a n rest H Hn Hr. pose proof (ip_bits_small a). rewrite (lex_cidr_addr t a) by (assumption || lia).
  unfold cidr_result. now rewrite (proj2 (Z.ltb_lt _ _)) by lia.
Qed.

Theorem C06_host_in_list : forall t a rest, addr_text t a -> ip_follow_ok rest ->
  lex_ip_range (t ++ rest) = LOk (cidr_item a (ip_bits a)) rest.
Proof. exact host_in_list. Qed.

Theorem C06_ip_range_roundtrip : forall t1 t2 a b rest, addr_text t1 a -> addr_text t2 b ->
  same_family a b = true -> ip_num a <= ip_num b -> ip_follow_ok rest ->
  lex_ip_range (t1 ++ [46%N; 46%N] ++ t2 ++ rest) = LOk (range_item a b) rest.
Proof. exact ip_range_roundtrip. Qed.

Theorem C06_mixed_family_rejected : forall t1 t2 a b rest, addr_text t1 a -> addr_text t2 b ->
  same_family a b = false -> ip_follow_ok rest ->
  lex_ip_range (t1 ++ [46%N; 46%N] ++ t2 ++ rest) =
  LErr EIncompatibleRangeBounds (t1 ++ [46%N; 46%N] ++ t2 ++ rest) (length (t1 ++ [46%N; 46%N] ++ t2)).
Proof. exact mixed_family_rejected. Qed.

Theorem C06_reversed_ip_range_rejected : forall t1 t2 a b rest, addr_text t1 a -> addr_text t2 b ->
  ip_num b < ip_num a -> ip_follow_ok rest ->
  lex_ip_range (t1 ++ [46%N; 46%N] ++ t2 ++ rest) =
  LErr EIncompatibleRangeBounds (t1 ++ [46%N; 46%N] ++ t2 ++ rest) (length (t1 ++ [46%N; 46%N] ++ t2)).
Proof.
  intros t1 t2 a b rest H1 H2 Hab Hr. rewrite (lex_range_addr t1 t2 a b) by assumption.
  unfold range_result. now rewrite (proj2 (Z.leb_gt _ _)), andb_false_r.
Qed.

Theorem C06_index_roundtrip : forall f n rest, 0 <= n < 4294967296 -> int_form_ok f n -> int_follow_ok rest ->
  lex_field_index (print_int f n ++ rest) = LOk (RIArr (Z.to_N n)) rest.
Proof. exact index_roundtrip. Qed.

Theorem C06_neg_or_oversized_index_rejected : forall f n rest,
  n < 0 \/ 4294967296 <= n -> int_form_ok f n -> int_follow_ok rest ->
  lex_field_index (print_int f n ++ rest) =
  LErr EExpectedLiteral (print_int f n ++ rest) (length (print_int f n ++ rest)).
Proof.
  intros f n rest Hn Hok Hf. rewrite index_lex by assumption.
  destruct (Z.leb_spec 0 n), (Z.ltb_spec n 4294967296); (reflexivity || lia).
Qed.

Theorem C06_map_key_utf8_only : forall l rest, styles_ok l ->
  lex_field_index (print_quoted l ++ rest) =
  if utf8_valid (map snd l) then LOk (RIKey (map snd l)) rest
  else LErr EExpectedLiteral (print_quoted l ++ rest) (length (print_quoted l ++ rest)).
Proof. exact map_key_utf8_only. Qed.

Theorem C06_list_name_spec : forall input,
  (exists v rest, lex_list_name input = LOk v rest) <->
  (exists name rest, input = 36%N :: name ++ rest /\ good_list_name name /\ listname_follow_ok rest).
Proof. exact list_name_iff. Qed.

Theorem C06_list_name_value : forall name rest, good_list_name name -> listname_follow_ok rest ->
  lex_list_name (36%N :: name ++ rest) = LOk name rest.
Proof. exact list_name_accept. Qed.

Theorem C06_list_name_rejected : forall name rest,
  Forall (fun b => listname_byte b = true) name -> listname_follow_ok rest -> ~ good_list_name name ->
  lex_list_name (36%N :: name ++ rest) = LErr EInvalidListName (name ++ rest) (length (name ++ rest)).
Proof. exact list_name_reject. Qed.

(* totality (the termination argument of C05 for the lexers): no lexer ever answers LPanic or LFuel,
   on any input (safe r := r <> LPanic /\ r <> LFuel) *)
Theorem C06_lex_no_panic_no_fuel : forall input,
  safe (lex_int input) /\ safe (lex_int_range input) /\ safe (lex_bytes input) /\
  safe (lex_quoted_string_as_vec input) /\ safe (lex_raw_string_as_str input) /\ safe (lex_byte_string input) /\
  safe (lex_quoted_or_raw_string input) /\ safe (lex_ip input) /\ safe (lex_ip_range input) /\
  safe (lex_list_name input) /\ safe (lex_ident_name input) /\ safe (lex_field_index input).
Proof.
  intros input.
  exact (conj (lex_int_safe _) (conj (lex_int_range_safe _) (conj (lex_bytes_safe _) (conj (lex_quoted_safe _)
        (conj (lex_raw_safe _) (conj (lex_byte_string_safe _) (conj (lex_quoted_or_raw_safe _) (conj (lex_ip_safe _)
        (conj (lex_ip_range_safe _) (conj (lex_list_name_safe _) (conj (lex_ident_name_safe _)
        (lex_field_index_safe _)))))))))))).
Qed.

Theorem C06_ipv6_compressed_roundtrip : forall upper hs ts rest,
  (length hs + length ts <= 7)%nat -> Forall group16 hs -> Forall group16 ts -> ip_follow_ok rest ->
  lex_ip (print_v6_compressed upper hs ts ++ rest) =
  LOk (V6 (v6_of (hs ++ repeat 0 (8 - (length hs + length ts)) ++ ts) 0)) rest.
Proof. intros. apply addr_roundtrip; [constructor|]; assumption. Qed.

Theorem C06_ipv6_embedded_roundtrip : forall upper gs a b c d rest,
  length gs = 6%nat -> Forall group16 gs -> octet a -> octet b -> octet c -> octet d -> ip_follow_ok rest ->
  lex_ip (print_v6_embedded upper gs a b c d ++ rest) =
  LOk (V6 (v6_of (gs ++ [a * 256 + b; c * 256 + d]) 0)) rest.
Proof. intros. apply addr_roundtrip; [constructor|]; assumption. Qed.

(* `::` and a dotted IPv4 tail in the same text: ::ffff:1.2.3.4, 64:ff9b::192.0.2.33, ::1.2.3.4 *)
Theorem C06_ipv6_compressed_embedded_roundtrip : forall upper hs ts a b c d rest,
  (length hs + length ts <= 5)%nat -> Forall group16 hs -> Forall group16 ts ->
  octet a -> octet b -> octet c -> octet d -> ip_follow_ok rest ->
  lex_ip (print_v6_compressed_embedded upper hs ts a b c d ++ rest) =
  LOk (V6 (v6_of (hs ++ repeat 0 (6 - (length hs + length ts)) ++ ts ++ [a * 256 + b; c * 256 + d]) 0)) rest.
Proof. intros. apply addr_roundtrip; [constructor|]; assumption. Qed.

(* every canonical text (addr_text: dotted IPv4; IPv6 full, `::`, dotted tail, both) is accepted by the
   CIDR and range theorems above.  Not covered by a theorem: non-canonical spellings of a group
   (leading zeros such as 0001, mixed case inside one group); they are exercised by the correspondence only. *)
Example C06_ipv6_mapped_instance :
  print_v6_compressed_embedded false [] [65535] 1 2 3 4 =
    [58%N; 58%N; 102%N; 102%N; 102%N; 102%N; 58%N; 49%N; 46%N; 50%N; 46%N; 51%N; 46%N; 52%N].
Proof. vm_compute. reflexivity. Qed.

Example C06_ex_int : lex_int (print_dec (-9223372036854775808) ++ [32%N]) = LOk (-9223372036854775808) [32%N].
Proof. vm_compute. reflexivity. Qed.
Example C06_ex_quoted_styles :
  styles_ok [(SLit, 97%N); (SBackslash, 34%N); (SHex true false, 255%N); (SOct, 0%N); (SHex false false, 10%N)].
Proof. repeat constructor; cbn; try lia; auto. Qed.
Example C06_ex_raw_premise : utf8_chars [97%N; 34%N; 35%N; 98%N] /\ no_early_close 2 [97%N; 34%N; 35%N; 98%N].
Proof.
  split; [repeat (constructor; try (cbv; reflexivity))|].
  intros p q E. destruct p as [|x0 [|x1 [|x2 [|x3 [|x4 p]]]]]; inversion E; subst; cbn; auto.
  all: try (destruct p; discriminate).
Qed.
Example C06_ex_cidr_premise : addr_text (print_v4 10 0 0 0) (V4 (v4_of 10 0 0 0)) /\ v4_of 10 0 0 0 mod 2 ^ (32 - 8) = 0.
Proof. split; [constructor; unfold octet; lia|reflexivity]. Qed.
Example C06_ex_list_name : good_list_name [97%N; 46%N; 98%N; 95%N; 49%N].
Proof. repeat split; try discriminate. repeat constructor. Qed.

Check C06_int_dec_roundtrip : forall v rest, in_i64 v -> int_follow_ok rest ->
  lex_int (print_dec v ++ rest) = LOk v rest.
Check C06_quoted_roundtrip : forall l rest, styles_ok l ->
  lex_bytes (print_quoted l ++ rest) = LOk (map snd l, FQuoted) rest.
Check C06_bad_escape_rejected : forall l r, styles_ok l -> ~ good_escape r ->
  exists k at_ len, lex_bytes (34%N :: print_qbody l ++ 92%N :: r) = LErr k at_ len.
Check C06_raw_roundtrip : forall n body rest, (n <= 255)%nat -> utf8_chars body -> no_early_close n body ->
  lex_bytes (print_raw n body ++ rest) = LOk (body, FRaw (N.of_nat n)) rest.
Check C06_hexpairs_roundtrip : forall u1 u2 b0 l rest,
  (b0 < 256)%N -> hextail_ok l -> l <> [] -> hexpairs_follow_ok rest ->
  lex_bytes (print_hexpairs u1 u2 b0 l ++ rest) = LOk (b0 :: map snd l, FByte) rest.
Check C06_cidr_roundtrip : forall t a n rest, addr_text t a -> 0 <= n <= ip_bits a ->
  ip_num a mod 2 ^ (ip_bits a - n) = 0 -> ip_follow_ok rest ->
  lex_ip_range (t ++ 47%N :: print_dec n ++ rest) = LOk (cidr_item a n) rest.
Check C06_index_roundtrip : forall f n rest, 0 <= n < 4294967296 -> int_form_ok f n -> int_follow_ok rest ->
  lex_field_index (print_int f n ++ rest) = LOk (RIArr (Z.to_N n)) rest.
Check C06_list_name_spec : forall input,
  (exists v rest, lex_list_name input = LOk v rest) <->
  (exists name rest, input = 36%N :: name ++ rest /\ good_list_name name /\ listname_follow_ok rest).

Print Assumptions C06_int_dec_roundtrip.
Print Assumptions C06_int_hex_roundtrip.
Print Assumptions C06_int_oct_roundtrip.
Print Assumptions C06_int_out_of_range_rejected.
Print Assumptions C06_int_range_roundtrip.
Print Assumptions C06_reversed_range_rejected.
Print Assumptions C06_int_single_in_list.
Print Assumptions C06_quoted_roundtrip.
Print Assumptions C06_bad_escape_rejected.
Print Assumptions C06_unterminated_rejected.
Print Assumptions C06_raw_roundtrip.
Print Assumptions C06_raw_roundtrip_utf8.
Print Assumptions C06_raw_256_rejected.
Print Assumptions C06_hexpairs_roundtrip.
Print Assumptions C06_ipv4_roundtrip.
Print Assumptions C06_ipv6_full_roundtrip.
Print Assumptions C06_cidr_roundtrip.
Print Assumptions C06_host_bits_rejected.
Print Assumptions C06_prefix_too_long_rejected.
Print Assumptions C06_host_in_list.
Print Assumptions C06_ip_range_roundtrip.
Print Assumptions C06_mixed_family_rejected.
Print Assumptions C06_reversed_ip_range_rejected.
Print Assumptions C06_index_roundtrip.
Print Assumptions C06_neg_or_oversized_index_rejected.
Print Assumptions C06_map_key_utf8_only.
Print Assumptions C06_list_name_spec.
Print Assumptions C06_list_name_value.
Print Assumptions C06_list_name_rejected.
Print Assumptions C06_lex_no_panic_no_fuel.
Print Assumptions C06_ipv6_compressed_roundtrip.
Print Assumptions C06_ipv6_embedded_roundtrip.
Print Assumptions C06_ipv6_compressed_embedded_roundtrip.
