(* C10 — `contains` is exact substring search on every code path.
   This file contains only the property theorems, each a lemma of
   Proofs/SearcherProofs.v or a few steps from some.

   Model: Sem/Searcher.v (a Gallina mirror of the `Contains` arm of
   compile_with_compiler in engine/src/ast/field_expr.rs, of
   engine/src/searcher.rs and of sliceslice-0.4.3's MemchrSearcher,
   vector_search_in_chunk, vector_search_in, Avx2Searcher::with_position and
   Avx2Searcher::inlined_search_in).  Specification: Spec/C10.v.

   Modelled faithfully: the dispatch on the needle length (0 / 1 / 2..=16 as
   `[u8; N]` / longer as `Box<[u8]>` / memmem when AVX2 is off), the anchor
   position, `with_position`'s assertions, the `haystack.len() <= needle.size()`
   shortcut, the choice of the lane width 2/4/8/16/32 from `end`,
   `haystack[..end].chunks_exact(LANES)`, the remainder chunk re-read at
   `end - LANES` with mask `u32::MAX << (LANES - remainder)`, both loads of a
   chunk with their bounds, the candidate mask
   `to_bitmask(lanes_eq(first) & lanes_eq(last)) & mask` as a number, the
   `while eq != 0 { trailing_zeros; memcmp; eq &= eq - 1 }` loop, the
   size-specialised memcmp length.  Every read outside the haystack or the
   needle, every assertion/unreachable!/shift overflow is an explicit [None].
   Abstracted: SIMD registers are lists of lane bytes (the intrinsics are not
   modelled below lane level); memchr::memchr is first-index search;
   memchr::memmem::Finder is [occurs] (third-party, tied by the
   correspondence runs only). *)
From Coq Require Import List NArith.
From WF Require Import Base.Bytes Sem.Searcher Spec.C10 Proofs.SearcherProofs.
Import ListNotations.
Open Scope nat_scope.

(* The executable specification decides "p is a contiguous subsequence of h". *)
Theorem C10_spec_is_substring : forall p h : bytes,
  contains_spec p h = true <-> substring p h.
Proof. intros p h. rewrite contains_spec_occurs. apply occurs_substring. Qed.

(* vector_search_spec: the chunked SIMD search of sliceslice, for EVERY lane
   width L > 0 (W is the width of the mask word, 32 in the code; L <= W), every
   anchor position (even 0), every needle representation, every haystack that
   reaches it (no bound on lengths): it returns exact substring search and
   never reads out of bounds, never overflows a shift, never runs out of
   fuel.  [L <= end] is what `inlined_search_in` guarantees; without it the
   code reads before the haystack (C10_width_precondition_needed). *)
Theorem C10_vector_search : forall (W L : nat) (size_const : option nat) (needle : bytes) (pos : nat) (hay : bytes),
  0 < L <= W ->
  pos < length needle ->
  (size_const = None \/ size_const = Some (length needle)) ->
  length needle <= length hay ->
  L <= length hay - length needle + 1 ->
  exists s, with_position size_const needle pos = Some s /\
            vector_search_in W s L hay (length hay - length needle + 1)
            = Some (contains_spec needle hay).
Proof.
  intros W L sz needle pos hay HL Hp Hsz Hn HLe.
  destruct (with_position_searcher sz needle pos Hp Hsz) as (s & Hs & Hok & <-).
  exists s. split; [exact Hs|]. rewrite contains_spec_occurs. now apply vector_search_spec.
Qed.

(* Avx2Searcher::inlined_search_in: every haystack of any length. *)
Theorem C10_inlined_search : forall (size_const : option nat) (needle : bytes) (pos : nat) (hay : bytes),
  pos < length needle ->
  (size_const = None \/ size_const = Some (length needle)) ->
  exists s, with_position size_const needle pos = Some s /\
            inlined_search_in s hay = Some (contains_spec needle hay).
Proof.
  intros sz needle pos hay Hp Hsz.
  destruct (with_position_searcher sz needle pos Hp Hsz) as (s & Hs & Hok & <-).
  exists s. split; [exact Hs|]. rewrite contains_spec_occurs. now apply inlined_search_spec.
Qed.

(* dispatch_spec: every path of the `Contains` arm equals the specification:
   any needle (empty, one byte, 2..=16, longer), AVX2 on or off, any anchor the
   random number generator can draw, any haystack. *)
Theorem C10_dispatch : forall (avx2 : bool) (anchor : nat) (needle hay : bytes),
  anchor_valid anchor needle ->
  contains_dispatch avx2 anchor needle hay = Some (contains_spec needle hay).
Proof. exact dispatch_full. Qed.

(* the randomly chosen anchor does not matter; hence recompiling the same
   filter gives the same answers *)
Theorem C10_anchor_irrelevant : forall (avx2 : bool) (a1 a2 : nat) (needle hay : bytes),
  anchor_valid a1 needle -> anchor_valid a2 needle ->
  contains_dispatch avx2 a1 needle hay = contains_dispatch avx2 a2 needle hay.
Proof. exact anchor_irrelevant. Qed.

(* WIREFILTER_USE_AVX2 does not matter *)
Theorem C10_avx2_switch_irrelevant : forall (a1 a2 : nat) (needle hay : bytes),
  anchor_valid a1 needle -> anchor_valid a2 needle ->
  contains_dispatch true a1 needle hay = contains_dispatch false a2 needle hay.
Proof. exact avx2_switch_irrelevant. Qed.

Theorem C10_empty_pattern_always : forall (avx2 : bool) (anchor : nat) (hay : bytes),
  contains_dispatch avx2 anchor [] hay = Some true /\ contains_spec [] hay = true.
Proof. intros avx2 anchor hay. split; [reflexivity|now destruct hay]. Qed.

Theorem C10_single_byte : forall (avx2 : bool) (anchor : nat) (b : N) (hay : bytes),
  contains_dispatch avx2 anchor [b] hay = Some (existsb (N.eqb b) hay).
Proof. exact single_byte_spec. Qed.

(* the premises of C10_vector_search are satisfiable with a remainder chunk
   (end = 7, L = 4: one full chunk, remainder 3, mask 0b1110) and a false
   candidate ("aXb" at offset 0) *)
Example C10_vector_search_nontrivial :
  exists s, with_position (Some 3) [97; 98; 99]%N 2 = Some s /\
            vector_search_in 32 s 4 [97; 120; 99; 100; 101; 102; 97; 98; 99]%N 7 = Some true.
Proof. eexists. split; [vm_compute; reflexivity | vm_compute; reflexivity]. Qed.

(* without [L <= end] the remainder chunk would start before the haystack *)
Example C10_width_precondition_needed :
  exists s, with_position None [97; 98]%N 1 = Some s /\
            vector_search_in 32 s 16 [120; 121; 97; 98]%N 3 = None.
Proof. eexists. split; [vm_compute; reflexivity | vm_compute; reflexivity]. Qed.

(* an anchor outside the needle is rejected by with_position's assertion *)
Example C10_anchor_bound_needed :
  contains_dispatch true 2 [97; 98]%N [97; 98; 99]%N = None /\ anchor_valid 1 [97; 98]%N.
Proof. split; [vm_compute; reflexivity | intros _; cbn; auto]. Qed.

Example C10_dispatch_nontrivial :
  contains_dispatch true 16 (repeat 97%N 16 ++ [98]%N) (repeat 97%N 63 ++ [98; 99]%N) = Some true /\
  contains_dispatch true 1 (repeat 97%N 16 ++ [98]%N) (repeat 97%N 63 ++ [99; 98]%N) = Some false.
Proof. split; vm_compute; reflexivity. Qed.

Check C10_spec_is_substring : forall p h : bytes, contains_spec p h = true <-> substring p h.
Check C10_vector_search : forall (W L : nat) (size_const : option nat) (needle : bytes) (pos : nat) (hay : bytes),
  0 < L <= W -> pos < length needle ->
  (size_const = None \/ size_const = Some (length needle)) ->
  length needle <= length hay -> L <= length hay - length needle + 1 ->
  exists s, with_position size_const needle pos = Some s /\
            vector_search_in W s L hay (length hay - length needle + 1) = Some (contains_spec needle hay).
Check C10_dispatch : forall (avx2 : bool) (anchor : nat) (needle hay : bytes),
  anchor_valid anchor needle ->
  contains_dispatch avx2 anchor needle hay = Some (contains_spec needle hay).

Print Assumptions C10_spec_is_substring.
Print Assumptions C10_vector_search.
Print Assumptions C10_inlined_search.
Print Assumptions C10_dispatch.
Print Assumptions C10_anchor_irrelevant.
Print Assumptions C10_avx2_switch_irrelevant.
Print Assumptions C10_empty_pattern_always.
Print Assumptions C10_single_byte.
