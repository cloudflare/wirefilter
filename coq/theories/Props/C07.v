(* C07 — The AST and its JSON are a canonical image of filter structure.
   This file contains only the property theorems, each [exact]ly a lemma of
   Proofs/ or a few lines from such lemmas, their non-vacuity examples and
   [Check]s of the main statements.

   What is proved, for all filters (any size, any nesting):
   * the serializer model produces exactly the canonical document of the
     structure of the filter (Spec/C07.v: operator names, identifier names, index
     kinds and values, decoded literals, one node per chain, parentheses only as
     nesting), its text is the compact JSON text of that document and the hash
     is FNV-1a-64 of that text, however the text is cut into writes;
   * structurally equal filters (equal up to parenthesis nodes and literal
     notation: quoted / raw; hex pairs only when the value is not UTF-8) have the
     same document, text and hash; conversely, over a scheme with distinct names,
     well-typed filters with the same document -- or the same JSON text -- are
     structurally equal (the text printer is injective on all JSON values, the
     model of std's address Display is injective on 32 / 128 bit values);
   * each alias pair of the property text is one constructor in the operator
     tables of the parser model, and the tables contain no other spelling.
   Partial: invariance of the parsed AST under alias choice and white space is
   proved at the token boundaries of the parser model (each parser function that
   consumes an operator, a parenthesis, an index bracket or the outer trim gives
   a result independent of the spelling and of the white space around it); the
   composition over whole filters is proved for the surface grammar of Spec/Grammar.v
   ([C07_whole_filter_layout_partial]: two texts of the grammar - any white space, any spelling of every
   operator, any literal notation that the AST keeps - that stand for the same structure parse to the same
   AST, hence the same JSON and hash); for the constructs the grammar does not describe yet the
   composition ([C07_full]) is validated by the correspondence check only. *)
From Coq Require Import List ZArith String Lia.
From WF Require Import Base.Bytes Sem.RangeSet Lang.Types Lang.Ast Sem.TypeCodec Sem.JsonText
     Parse.Lex Sem.Compile Parse.Parser Spec.Typing Sem.AstJson Spec.C07 Proofs.AstJsonProofs
     Proofs.LayoutProofs Proofs.JsonPrintProofs Proofs.IpTextInj Proofs.LitsTyped Proofs.C07Proofs
     Proofs.IpsProofs Spec.Grammar Proofs.GrammarProofs.
Import ListNotations.
Open Scope N_scope.

(* ---- the full alias / white-space statement (not proved) ---- *)
Definition C07_full : Prop :=
  forall (sch : scheme) (st : settings) (e : lexpr) (lay1 lay2 : layout) (t1 t2 : bytes) (e' : lexpr),
    render sch e lay1 = Some t1 -> render sch e lay2 = Some t2 ->
    parse_filter sch st t1 = LOk e' [] -> parse_filter sch st t2 = LOk e' [].

Theorem C07_json_is_canonical_document : forall sch e,
  json_of_lexpr sch e = canon_doc sch e /\
  filter_json_text sch e = canon_text sch e /\
  filter_hash sch e = canon_hash sch e.
Proof.
  intros sch e. split; [apply json_is_canon_doc|].
  split; [apply filter_text_is_canon_text|apply filter_hash_is_canon_hash].
Qed.

Theorem C07_same_structure_same_json_and_hash : forall sch e1 e2,
  struct_eq e1 e2 ->
  json_of_lexpr sch e1 = json_of_lexpr sch e2 /\
  filter_json_text sch e1 = filter_json_text sch e2 /\
  filter_hash sch e1 = filter_hash sch e2.
Proof. intros sch e1 e2 H. split; [now apply struct_eq_same_doc|now apply struct_eq_same_hash]. Qed.

Theorem C07_structure_is_normal_form : forall e, erase (erase e) = erase e.
Proof. exact (proj1 erase_idem_mut). Qed.

(* structurally different filters serialize differently *)

Theorem C07_document_determines_structure : forall sch e1 e2,
  names_distinct sch -> lits_typed sch e1 -> lits_typed sch e2 ->
  json_of_lexpr sch e1 = json_of_lexpr sch e2 -> struct_eq e1 e2.
Proof. exact document_determines_structure. Qed.

Theorem C07_text_determines_structure : forall sch e1 e2,
  names_distinct sch -> wt_filter sch e1 = true -> wt_filter sch e2 = true -> ips_ok e1 -> ips_ok e2 ->
  filter_json_text sch e1 = filter_json_text sch e2 -> struct_eq e1 e2.
Proof. exact text_determines_structure. Qed.

Theorem C07_parsed_same_text_iff_same_structure : forall sch st t1 t2 e1 e2 r1 r2,
  names_distinct sch -> parse_filter sch st t1 = LOk e1 r1 -> parse_filter sch st t2 = LOk e2 r2 ->
  ips_ok e1 -> ips_ok e2 ->
  (filter_json_text sch e1 = filter_json_text sch e2 <-> struct_eq e1 e2).
Proof. exact parsed_text_determines_structure. Qed.

(* ... and the premise about addresses holds for whatever the parser accepts
   (Proofs/IpsProofs.v: every address literal is a 32 / 128 bit value), so for
   parsed filters the statement is unconditional: *)
Theorem C07_parsed_addresses_in_range : forall sch st text e r,
  parse_filter sch st text = LOk e r -> ips_ok e.
Proof. exact parse_filter_ips_ok. Qed.

Theorem C07_parsed_text_iff_structure : forall sch st t1 t2 e1 e2 r1 r2,
  names_distinct sch -> parse_filter sch st t1 = LOk e1 r1 -> parse_filter sch st t2 = LOk e2 r2 ->
  (filter_json_text sch e1 = filter_json_text sch e2 <-> struct_eq e1 e2).
Proof.
  intros sch st t1 t2 e1 e2 r1 r2 Hn H1 H2.
  exact (parsed_text_determines_structure sch st t1 t2 e1 e2 r1 r2 Hn H1 H2
           (parse_filter_ips_ok _ _ _ _ _ H1) (parse_filter_ips_ok _ _ _ _ _ H2)).
Qed.

(* the typing rules decide the kind of every literal *)
Theorem C07_well_typed_literals_are_typed : forall sch e,
  wt_filter sch e = true -> ips_ok e -> lits_typed sch e.
Proof. exact wt_lits_typed. Qed.

Theorem C07_json_text_injective : forall j1 j2 : json,
  (jprint j1 = jprint j2 -> j1 = j2) /\ (json_print j1 = json_print j2 -> j1 = j2) /\ jprint j1 = json_print j1.
Proof. intros j1 j2. split; [apply jprint_injective|]. split; [apply json_print_injective|apply jprint_is_json_print]. Qed.

(* the model of std's Display of addresses *)
Theorem C07_ip_text_injective : forall a c : ip,
  ip_ok a -> ip_ok c -> ip_text a = ip_text c -> a = c.
Proof. exact ip_text_injective. Qed.

Theorem C07_fnv_is_fold : forall text : bytes, fnv1a64 text = fnv1a_spec text /\ fnv1a_spec text < 2 ^ 64.
Proof. intros text. split; [apply fnv_model_is_spec|apply fnv_range]. Qed.

Theorem C07_hash_chunking_irrelevant : forall (chunks : list bytes) (h : N),
  fnv_write_all h chunks = fnv_write h (List.concat chunks).
Proof. exact fnv_chunking_irrelevant. Qed.

Theorem C07_equal_json_equal_hash : forall sch e1 e2,
  json_of_lexpr sch e1 = json_of_lexpr sch e2 -> filter_hash sch e1 = filter_hash sch e2.
Proof. intros sch e1 e2 H. unfold filter_hash, filter_json_text. now rewrite H. Qed.

(* aliases: one constructor per pair *)

Theorem C07_logical_aliases : forall a1 a2 o r,
  In (a1, a2, o) logical_aliases ->
  lex_alts logical_ops (a1 ++ r) = Some (o, r) /\ lex_alts logical_ops (a2 ++ r) = Some (o, r).
Proof. exact logical_alias_table. Qed.

Theorem C07_unary_aliases : forall a1 a2 r,
  In (a1, a2) unary_aliases ->
  lex_alts unary_ops (a1 ++ r) = Some (tt, r) /\ lex_alts unary_ops (a2 ++ r) = Some (tt, r).
Proof. exact unary_alias_table. Qed.

Theorem C07_comparison_aliases : forall a1 a2 c r,
  In (a1, a2, c) comparison_aliases -> no_eq_follows r ->
  lex_alts comparison_ops (a1 ++ r) = Some (c, r) /\ lex_alts comparison_ops (a2 ++ r) = Some (c, r).
Proof. exact comparison_alias_table. Qed.

Theorem C07_logical_table_has_no_other_spelling : forall t o,
  In (t, o) logical_ops -> exists a1 a2, In (a1, a2, o) logical_aliases /\ (t = a1 \/ t = a2).
Proof. exact logical_table_complete. Qed.

(* ---- white space and aliases at token boundaries (partial: see C07_full) ---- *)

Theorem C07_skip_space_layout_partial : forall ws1 ws2 x,
  layout_ws ws1 -> layout_ws ws2 ->
  skip_space (ws1 ++ x) = skip_space (ws2 ++ x) /\ skip_space (ws1 ++ x) = skip_space x /\
  skip_space (skip_space x) = skip_space x.
Proof.
  intros ws1 ws2 x H1 H2. split; [now apply skip_space_layout|]. split; [now apply skip_space_ws|apply skip_space_idem].
Qed.

Theorem C07_outer_layout_partial : forall sch st ws1 ws2 x,
  layout_ws ws1 -> layout_ws ws2 -> parse_filter sch st (ws1 ++ x ++ ws2) = parse_filter sch st x.
Proof. exact parse_filter_outer_layout. Qed.

Theorem C07_combining_op_layout_partial : forall a1 a2 o ws1 ws2 r,
  In (a1, a2, o) logical_aliases -> layout_ws ws1 -> layout_ws ws2 ->
  lex_combining_op (ws1 ++ a1 ++ ws2 ++ r) = (Some o, skip_space r) /\
  lex_combining_op (ws1 ++ a2 ++ ws2 ++ r) = (Some o, skip_space r).
Proof. exact combining_op_layout. Qed.

Theorem C07_unary_layout_partial : forall sch st f d a1 a2 ws r,
  In (a1, a2) unary_aliases -> layout_ws ws -> d < st_max_depth st ->
  let k := lbind (lex_simple sch st f (d + 1) (skip_space r)) (fun arg rest1 => LOk (ENot arg) rest1) in
  lex_simple sch st (S f) d (a1 ++ ws ++ r) = k /\ lex_simple sch st (S f) d (a2 ++ ws ++ r) = k.
Proof. exact unary_layout. Qed.

Theorem C07_ordering_layout_partial : forall sch st f d lhs lt a1 a2 o ws1 ws2 r,
  In (a1, a2, OpOrd o) comparison_aliases -> ty_iexpr sch lhs = Some lt -> prim3 lt = true ->
  layout_ws ws1 -> layout_ws ws2 -> no_eq_follows (ws2 ++ r) ->
  let k := lbind (lex_rhs lt (skip_space r)) (fun v rest => LOk (EComparison lhs (COrd o v)) rest) in
  lex_with_lhs sch st (S f) d (ws1 ++ a1 ++ ws2 ++ r) lhs = k /\
  lex_with_lhs sch st (S f) d (ws1 ++ a2 ++ ws2 ++ r) lhs = k.
Proof. exact ordering_layout. Qed.

Theorem C07_bitwise_and_layout_partial : forall sch st f d lhs ws1 ws2 r,
  ty_iexpr sch lhs = Some TInt -> layout_ws ws1 -> layout_ws ws2 ->
  let k := lbind (lex_int (skip_space r)) (fun z rest => LOk (EComparison lhs (CBitAnd z)) rest) in
  lex_with_lhs sch st (S f) d (ws1 ++ bs "bitwise_and" ++ ws2 ++ r) lhs = k /\
  lex_with_lhs sch st (S f) d (ws1 ++ bs "&" ++ ws2 ++ r) lhs = k.
Proof. exact bitwise_and_layout. Qed.

Theorem C07_matches_layout_partial : forall sch st f d lhs ws1 ws2 r,
  ty_iexpr sch lhs = Some TBytes -> layout_ws ws1 -> layout_ws ws2 ->
  let k := lbind (lex_regex (skip_space r)) (fun p rest => LOk (EComparison lhs (CMatches (fst p) (snd p))) rest) in
  lex_with_lhs sch st (S f) d (ws1 ++ bs "matches" ++ ws2 ++ r) lhs = k /\
  lex_with_lhs sch st (S f) d (ws1 ++ bs "~" ++ ws2 ++ r) lhs = k.
Proof. exact matches_layout. Qed.

Theorem C07_paren_layout_partial : forall sch st f d ws r,
  layout_ws ws -> d < st_max_depth st ->
  lex_simple sch st (S f) d (40 :: ws ++ r) = lex_simple sch st (S f) d (40 :: r).
Proof. exact paren_layout. Qed.

(* ---- whole filters: layout and spelling are invisible (for the texts of Spec/Grammar.v) ---- *)
Theorem C07_whole_filter_layout_partial : forall sch st t1 t2 e,
  GFilter sch st t1 e -> GFilter sch st t2 e ->
  parse_filter sch st t1 = LOk e [] /\ parse_filter sch st t2 = LOk e [].
Proof.
  intros sch st t1 t2 e H1 H2.
  split; [exact (filter_grammar_parses sch st t1 e H1)|exact (filter_grammar_parses sch st t2 e H2)].
Qed.
(* the JSON text and the hash are functions of the AST (C07_json_is_canonical_document), so they agree too *)

(* ---- non-vacuity ---- *)

Definition ex_sch : scheme :=
  {| sc_fields := [ {| fd_name := bs "num"; fd_ty := TInt; fd_optional := false |};
                    {| fd_name := bs "str"; fd_ty := TBytes; fd_optional := false |};
                    {| fd_name := bs "ip"; fd_ty := TIp; fd_optional := true |};
                    {| fd_name := bs "tt"; fd_ty := TBool; fd_optional := false |};
                    {| fd_name := bs "nums"; fd_ty := TArray TInt; fd_optional := true |} ];
     sc_functions := []; sc_lists := []; sc_nil_ne := true |}.

(* not (num >= 5 and tt) or str in {"a" ff:fe} or ip in {10.0.0.0/8 ::1} or any(nums[*] == -1) *)
Definition ex_ast : lexpr :=
  ECombining LOr
    (LCons (ENot (EParen (ECombining LAnd
              (LCons (EComparison (IField 0 []) (COrd OGe (RInt 5)))
              (LCons (EComparison (IField 3 []) CIsTrue) LNil)))))
    (LCons (EComparison (IField 1 []) (COneOfBytes [([97], FQuoted); ([255; 254], FByte)]))
    (LCons (EComparison (IField 2 []) (COneOfIp [IpCidr4 167772160 8; IpCidr6 1 128]))
    (LCons (EQuantLogical QAny (EComparison (IField 4 [IEach]) (COrd OEq (RInt (-1))))) LNil)))).

Definition ex_text1 : bytes :=
  bs "not (num ge 5 and tt) or str in {""a"" ff:fe} or ip in {10.0.0.0/8 ::1} or any(nums[*] eq -1)".
Definition ex_text2 : bytes :=
  [32; 10] ++ bs "!( num>=5&&tt )||str in { ""a""" ++ [13; 10] ++ bs "ff:fe }" ++ [10]
  ++ bs "|| ip in {10.0.0.0/8  ::1}||any ( nums[ * ]==-1 )" ++ [10].

Example C07_two_layouts_one_ast :
  parse_filter ex_sch default_settings ex_text1 = LOk ex_ast [] /\
  parse_filter ex_sch default_settings ex_text2 = LOk ex_ast [] /\
  filter_json_text ex_sch ex_ast =
    bs "{""op"":""Or"",""items"":[{""op"":""Not"",""arg"":{""op"":""And"",""items"":[{""lhs"":""num"",""op"":""GreaterThanEqual"",""rhs"":5},{""lhs"":""tt"",""op"":""IsTrue""}]}},{""lhs"":""str"",""op"":""OneOf"",""rhs"":[""a"",[255,254]]},{""lhs"":""ip"",""op"":""OneOf"",""rhs"":[""10.0.0.0/8"",""::1""]},{""op"":""Any"",""arg"":{""kind"":""SimpleExpr"",""value"":{""lhs"":[""nums"",{""kind"":""MapEach""}],""op"":""Equal"",""rhs"":-1}}}]}".
Proof. vm_compute. repeat split. Qed.

Example C07_premises_satisfiable :
  names_distinct ex_sch /\ wt_filter ex_sch ex_ast = true /\ ips_ok ex_ast /\ lits_typed ex_sch ex_ast.
Proof.
  split; [|split; [vm_compute; reflexivity|split]].
  - unfold names_distinct. cbn. repeat constructor; cbn; intuition discriminate.
  - cbn. repeat split; try (repeat constructor; cbn; lia).
  - apply wt_lits_typed; [vm_compute; reflexivity|]. cbn. repeat split; try (repeat constructor; cbn; lia).
Qed.

(* one operator changed: another document *)
Example C07_distinct_filters_distinct_text :
  let e2 := ECombining LOr (LCons (EComparison (IField 0 []) (COrd OGt (RInt 5))) (LCons (EComparison (IField 3 []) CIsTrue) LNil)) in
  let e1 := ECombining LOr (LCons (EComparison (IField 0 []) (COrd OGe (RInt 5))) (LCons (EComparison (IField 3 []) CIsTrue) LNil)) in
  filter_json_text ex_sch e1 <> filter_json_text ex_sch e2.
Proof. vm_compute. discriminate. Qed.

(* the hash of {"lhs":"num","op":"Equal","rhs":1} is the value the C API returns *)
Example C07_known_hash :
  filter_hash ex_sch (EParen (EComparison (IField 0 []) (COrd OEq (RInt 1)))) = 9537394349879843409.
Proof. vm_compute. reflexivity. Qed.

(* the renderer of C07_full produces the expected texts *)
Example C07_render_example :
  let e := ECombining LAnd (LCons (EComparison (IField 0 []) (COrd OGe (RInt 5))) (LCons (ENot (EComparison (IField 3 []) CIsTrue)) LNil)) in
  render ex_sch e [(false, []); (true, []); (true, []); (false, [32]); (false, [10]); (false, [32]); (false, [])]
    = Some (bs "num>=5 and" ++ [10] ++ bs "not tt") /\
  render ex_sch e [(false, [32]); (false, [32]); (false, [32]); (true, []); (true, []); (true, []); (false, [])]
    = Some (bs " num ge 5&&!tt") /\
  parse_filter ex_sch default_settings (bs "num>=5 and" ++ [10] ++ bs "not tt") = LOk e [] /\
  parse_filter ex_sch default_settings (bs " num ge 5&&!tt") = LOk e [].
Proof. vm_compute. repeat split. Qed.

Check C07_json_is_canonical_document : forall sch e,
  json_of_lexpr sch e = canon_doc sch e /\ filter_json_text sch e = canon_text sch e /\
  filter_hash sch e = canon_hash sch e.
Check C07_same_structure_same_json_and_hash : forall sch e1 e2,
  struct_eq e1 e2 ->
  json_of_lexpr sch e1 = json_of_lexpr sch e2 /\ filter_json_text sch e1 = filter_json_text sch e2 /\
  filter_hash sch e1 = filter_hash sch e2.
Check C07_document_determines_structure : forall sch e1 e2,
  names_distinct sch -> lits_typed sch e1 -> lits_typed sch e2 ->
  json_of_lexpr sch e1 = json_of_lexpr sch e2 -> struct_eq e1 e2.
Check C07_text_determines_structure : forall sch e1 e2,
  names_distinct sch -> wt_filter sch e1 = true -> wt_filter sch e2 = true -> ips_ok e1 -> ips_ok e2 ->
  filter_json_text sch e1 = filter_json_text sch e2 -> struct_eq e1 e2.
Check C07_json_text_injective : forall j1 j2 : json,
  (jprint j1 = jprint j2 -> j1 = j2) /\ (json_print j1 = json_print j2 -> j1 = j2) /\ jprint j1 = json_print j1.
Check C07_fnv_is_fold : forall text : bytes, fnv1a64 text = fnv1a_spec text /\ fnv1a_spec text < 2 ^ 64.
Check C07_logical_aliases : forall a1 a2 o r,
  In (a1, a2, o) logical_aliases ->
  lex_alts logical_ops (a1 ++ r) = Some (o, r) /\ lex_alts logical_ops (a2 ++ r) = Some (o, r).
Check C07_comparison_aliases : forall a1 a2 c r,
  In (a1, a2, c) comparison_aliases -> no_eq_follows r ->
  lex_alts comparison_ops (a1 ++ r) = Some (c, r) /\ lex_alts comparison_ops (a2 ++ r) = Some (c, r).
