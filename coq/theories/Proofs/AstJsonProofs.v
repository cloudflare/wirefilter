(* C07, part 1: the serializer model produces exactly the canonical document
   of the structure of the filter; its compact printer is the JSON text writer
   of Sem/JsonText.v; the FNV-1a model is its fold specification and does not
   depend on how the text is cut into pieces. *)
From Coq Require Import List NArith String.
From WF Require Import Base.Bytes Lang.Types Lang.Ast Sem.TypeCodec Sem.JsonText Sem.AstJson
     Spec.C07 Proofs.ListFacts.
Import ListNotations.
Local Open Scope N_scope.

Section JsonInd.
  Variable P : json -> Prop.
  Hypothesis HNull : P JNull.
  Hypothesis HBool : forall v, P (JBool v).
  Hypothesis HNum : forall z, P (JNum z).
  Hypothesis HStr : forall x, P (JStr x).
  Hypothesis HArr : forall l, Forall P l -> P (JArr l).
  Hypothesis HObj : forall l, Forall (fun kv => P (snd kv)) l -> P (JObj l).

  Fixpoint json_ind2 (j : json) : P j :=
    match j with
    | JNull => HNull
    | JBool v => HBool v
    | JNum z => HNum z
    | JStr x => HStr x
    | JArr l =>
        HArr l ((fix go (l : list json) : Forall P l :=
                   match l with
                   | [] => Forall_nil P
                   | x :: r => Forall_cons x (json_ind2 x) (go r)
                   end) l)
    | JObj l =>
        HObj l ((fix go (l : list (bytes * json)) : Forall (fun kv => P (snd kv)) l :=
                   match l with
                   | [] => Forall_nil _
                   | kv :: r => Forall_cons kv (json_ind2 (snd kv)) (go r)
                   end) l)
    end.
End JsonInd.

Lemma field_name_spec sch f : field_name sch f = name_of_field sch f.
Proof. apply nth_error_nth_map. Qed.

Lemma fn_name_spec sch f : fn_name sch f = name_of_fn sch f.
Proof. apply nth_error_nth_map. Qed.

Lemma json_bytes_doc x f : json_bytes_expr x f = doc_bytes x f.
Proof. unfold json_bytes_expr, doc_bytes, shown_as_text, json_u8_seq, nums. destruct f; reflexivity. Qed.

Lemma json_rhs_doc r : json_rhs r = doc_rhs r.
Proof. destruct r as [z|x f|a]; cbn; [reflexivity|apply json_bytes_doc|reflexivity]. Qed.

Lemma json_ip_item_doc it : json_ip_item it = doc_ip_item it.
Proof. destruct it; reflexivity. Qed.

Lemma json_index_doc i : json_index i = doc_index i.
Proof. destruct i; reflexivity. Qed.

Lemma with_indexes_doc j idx : with_indexes j idx = doc_indexed j idx.
Proof.
  destruct idx as [|i r]; reflexivity.
Qed.

Lemma json_cmpop_fields_doc op :
  json_cmpop_fields op =
  let (name, r) := doc_cmpop op in
  (jkey "op", jstr name) :: match r with Some r => [(jkey "rhs", r)] | None => [] end.
Proof.
  destruct op as [|o r|z|p f|pat raw|st p f|l|l|l|li name]; cbn [json_cmpop_fields doc_cmpop op_rhs]; try reflexivity.
  - rewrite json_rhs_doc. now destruct o.
  - now rewrite json_bytes_doc.
  - rewrite json_bytes_doc. now destruct st.
  - now rewrite (map_ext _ _ (fun p => json_bytes_doc (fst p) (snd p))).
Qed.

Lemma json_is_doc_mut sch :
  (forall e, json_of_lexpr sch e = doc sch e) /\
  (forall l, json_of_lexprs sch l = doc_list sch l) /\
  (forall e, json_of_iexpr sch e = doc_i sch e) /\
  (forall a, json_of_args sch a = doc_args sch a) /\
  (forall a, json_of_arg sch a = doc_arg sch a).
Proof.
  apply ast_mutind; cbn [json_of_lexpr json_of_lexprs json_of_iexpr json_of_args json_of_arg doc doc_list doc_i doc_args doc_arg];
    try congruence.
  - intros op items ->. now destruct op.
  - intros lhs -> op. rewrite json_cmpop_fields_doc. now destruct (doc_cmpop op) as [name [r|]].
  - now intros e ->.
  - intros q a ->. now destruct q.
  - intros q a ->. now destruct q.
  - intros f idx. now rewrite with_indexes_doc, field_name_spec.
  - intros fn a -> idx. now rewrite with_indexes_doc, fn_name_spec.
  - now intros e ->.
  - intros r. now rewrite json_rhs_doc.
  - now intros e ->.
Qed.

Lemma json_is_doc sch e : json_of_lexpr sch e = doc sch e.
Proof. exact (proj1 (json_is_doc_mut sch) e). Qed.

Lemma shown_erase x f : shown_as_text x (erase_fmt x f) = shown_as_text x f.
Proof.
  unfold erase_fmt. destruct (shown_as_text x f) eqn:E; [|reflexivity].
  unfold shown_as_text in *. destruct f; try discriminate; exact E.
Qed.

Lemma doc_bytes_erase x f : doc_bytes x (erase_fmt x f) = doc_bytes x f.
Proof. unfold doc_bytes. now rewrite shown_erase. Qed.

Lemma doc_rhs_erase r : doc_rhs (erase_rhs r) = doc_rhs r.
Proof. destruct r; cbn; [reflexivity|apply doc_bytes_erase|reflexivity]. Qed.

Lemma doc_cmpop_erase op : doc_cmpop (erase_cmpop op) = doc_cmpop op.
Proof.
  destruct op as [|o r|z|p f|pat raw|st p f|l|l|l|li name]; cbn [erase_cmpop doc_cmpop]; try reflexivity.
  - now rewrite doc_rhs_erase.
  - now rewrite doc_bytes_erase.
  - now rewrite doc_bytes_erase.
  - rewrite map_map. cbn [fst snd]. now rewrite (map_ext _ _ (fun x => doc_bytes_erase (fst x) (snd x))).
Qed.

Lemma doc_erase_mut sch :
  (forall e, doc sch (erase e) = doc sch e) /\
  (forall l, doc_list sch (erase_list l) = doc_list sch l) /\
  (forall e, doc_i sch (erase_i e) = doc_i sch e) /\
  (forall a, doc_args sch (erase_args a) = doc_args sch a) /\
  (forall a, doc_arg sch (erase_arg a) = doc_arg sch a).
Proof.
  apply ast_mutind; cbn [erase erase_list erase_i erase_args erase_arg doc doc_list doc_i doc_args doc_arg]; try congruence.
  - now intros op items ->.
  - intros lhs -> op. now rewrite doc_cmpop_erase.
  - now intros q a ->.
  - now intros q a ->.
  - intros r. now rewrite doc_rhs_erase.
Qed.

Theorem json_is_canon_doc sch e : json_of_lexpr sch e = canon_doc sch e.
Proof. unfold canon_doc. rewrite (proj1 (doc_erase_mut sch)). apply json_is_doc. Qed.

Theorem struct_eq_same_doc sch e1 e2 : struct_eq e1 e2 -> json_of_lexpr sch e1 = json_of_lexpr sch e2.
Proof. unfold struct_eq. intro H. rewrite !json_is_canon_doc. unfold canon_doc. now rewrite H. Qed.

Lemma erase_fmt_idem x f : erase_fmt x (erase_fmt x f) = erase_fmt x f.
Proof. unfold erase_fmt at 1. rewrite shown_erase. reflexivity. Qed.

Lemma erase_rhs_idem r : erase_rhs (erase_rhs r) = erase_rhs r.
Proof. destruct r; cbn [erase_rhs]; [reflexivity|now rewrite erase_fmt_idem|reflexivity]. Qed.

Lemma erase_cmpop_idem op : erase_cmpop (erase_cmpop op) = erase_cmpop op.
Proof.
  destruct op as [|o r|z|p f|pat raw|st p f|l|l|l|li name]; cbn [erase_cmpop]; try reflexivity.
  - now rewrite erase_rhs_idem.
  - now rewrite erase_fmt_idem.
  - now rewrite erase_fmt_idem.
  - rewrite map_map. cbn [fst snd]. f_equal. apply map_ext. intro. now rewrite erase_fmt_idem.
Qed.

Lemma erase_idem_mut :
  (forall e, erase (erase e) = erase e) /\
  (forall l, erase_list (erase_list l) = erase_list l) /\
  (forall e, erase_i (erase_i e) = erase_i e) /\
  (forall a, erase_args (erase_args a) = erase_args a) /\
  (forall a, erase_arg (erase_arg a) = erase_arg a).
Proof.
  apply ast_mutind; cbn [erase erase_list erase_i erase_args erase_arg]; try congruence.
  - intros lhs IH op. now rewrite IH, erase_cmpop_idem.
  - intros r. now rewrite erase_rhs_idem.
Qed.

Lemma join_sep_cons sep g r : join_sep sep (g :: r) = g ++ match r with [] => [] | _ => sep :: join_sep sep r end.
Proof. destruct r; cbn [join_sep]; [now rewrite app_nil_r|reflexivity]. Qed.

Lemma jprint_is_json_print : forall j, jprint j = json_print j.
Proof.
  induction j as [| v | z | x | l IH | l IH] using json_ind2; try reflexivity.
  - cbn [jprint json_print]. f_equal.
    assert (G : forall first,
      (fix go (l : list json) (first : bool) {struct l} : bytes :=
         match l with
         | [] => [93]
         | x :: l' => (if first then [] else [44]) ++ json_print x ++ go l' false
         end) l first
      = (match l with [] => [] | _ => if first then [] else [44] end) ++ join_sep 44 (map jprint l) ++ [93]).
    { induction IH as [|x r Hx Hr IHr]; intro first; [reflexivity|].
      rewrite IHr. cbn [map]. rewrite join_sep_cons, <- Hx. destruct r as [|y r'].
      - cbn [map join_sep]. now rewrite !app_nil_r, app_nil_l.
      - cbn [map]. rewrite <- !app_assoc. reflexivity. }
    rewrite G. now destruct l.
  - cbn [jprint json_print]. f_equal.
    assert (G : forall first,
      (fix go (l : list (bytes * json)) (first : bool) {struct l} : bytes :=
         match l with
         | [] => [125]
         | (k, v) :: l' => (if first then [] else [44]) ++ print_jstr k ++ 58 :: json_print v ++ go l' false
         end) l first
      = (match l with [] => [] | _ => if first then [] else [44] end)
        ++ join_sep 44 (map (fun kv => match kv with (k, v) => jprint_member k (jprint v) end) l) ++ [125]).
    { induction IH as [|[k v] r Hx Hr IHr]; intro first; [reflexivity|].
      rewrite IHr. cbn [map]. rewrite join_sep_cons. cbn [snd] in Hx. rewrite <- Hx. unfold jprint_member.
      destruct r as [|y r'].
      - cbn [map join_sep app]. rewrite !app_nil_r. rewrite <- !app_assoc. reflexivity.
      - cbn [map app]. rewrite <- !app_assoc. cbn [app]. rewrite <- ?app_assoc. reflexivity. }
    rewrite G. now destruct l.
Qed.

Theorem filter_text_is_canon_text sch e : filter_json_text sch e = canon_text sch e.
Proof. unfold filter_json_text, canon_text. now rewrite jprint_is_json_print, json_is_canon_doc. Qed.

Lemma fnv_step_model h c : N.land (FNV_PRIME * N.lxor h c) U64_MASK = fnv_step h c.
Proof.
  unfold fnv_step. change U64_MASK with (N.ones 64). rewrite N.land_ones.
  unfold FNV_PRIME. now rewrite N.mul_comm.
Qed.

Lemma fnv_write_fold text : forall h, fnv_write h text = fold_left fnv_step text h.
Proof. induction text as [|c r IH]; intro h; cbn [fnv_write fold_left]; [reflexivity|]. now rewrite fnv_step_model, IH. Qed.

Theorem fnv_model_is_spec text : fnv1a64 text = fnv1a_spec text.
Proof. apply fnv_write_fold. Qed.

Lemma fnv_write_app a : forall h c, fnv_write h (a ++ c) = fnv_write (fnv_write h a) c.
Proof. induction a as [|x r IH]; intros h c; cbn [fnv_write app]; [reflexivity|apply IH]. Qed.

(* however serde_json cuts the text into write calls, the hash is that of the whole text *)
Theorem fnv_chunking_irrelevant chunks : forall h, fnv_write_all h chunks = fnv_write h (List.concat chunks).
Proof.
  induction chunks as [|c r IH]; intro h; cbn [fnv_write_all List.concat]; [reflexivity|].
  now rewrite IH, fnv_write_app.
Qed.

Lemma fnv_step_lt h c : fnv_step h c < 2 ^ 64.
Proof. unfold fnv_step. apply N.mod_lt. discriminate. Qed.

Theorem fnv_range text : fnv1a_spec text < 2 ^ 64.
Proof.
  unfold fnv1a_spec. set (h0 := 14695981039346656037).
  assert (H0 : h0 < 2 ^ 64) by reflexivity.
  clearbody h0. revert h0 H0. induction text as [|c r IH]; intros h0 H0; cbn [fold_left]; [exact H0|].
  apply IH, fnv_step_lt.
Qed.

Theorem filter_hash_is_canon_hash sch e : filter_hash sch e = canon_hash sch e.
Proof. unfold filter_hash, canon_hash. now rewrite fnv_model_is_spec, filter_text_is_canon_text. Qed.

Theorem struct_eq_same_hash sch e1 e2 :
  struct_eq e1 e2 ->
  filter_json_text sch e1 = filter_json_text sch e2 /\ filter_hash sch e1 = filter_hash sch e2.
Proof.
  intro H. unfold filter_hash, filter_json_text. rewrite (struct_eq_same_doc sch e1 e2 H). split; reflexivity.
Qed.
