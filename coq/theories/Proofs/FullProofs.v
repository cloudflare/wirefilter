(* The main theorem of C02 / C03 / C04(execution) / C17 at AST level: for every
   well-typed filter or value expression (documented typing rules, Spec/Typing.v),
   every well-formed context and every type-correct function library, the
   compiled closures return exactly the denotation and never panic
   ([full_correct_mut]).  Before it, the inversions of the typing rules for
   comparisons and calls that TypingProofs and LitsTyped use as well; after it,
   the scalar filters of C01, which need no assumption on functions
   ([scalar_correct_mut], over the same case lemmas). *)
From Coq Require Import List Bool Lia Arith.
From WF Require Import Lang.Types Lang.Ast Lang.Context Sem.Compile Spec.Denote Spec.Typing
     Proofs.ScalarProofs Proofs.ValueProofs Proofs.IndexProofs Proofs.ExecProofs Proofs.CallProofs
     Proofs.ByteKeys.
Import ListNotations.

Inductive Forall3 {A B C} (R : A -> B -> C -> Prop) : list A -> list B -> list C -> Prop :=
| F3_nil : Forall3 R [] [] []
| F3_cons x y z xs ys zs : R x y z -> Forall3 R xs ys zs -> Forall3 R (x :: xs) (y :: ys) (z :: zs).

Lemma Forall3_length {A B C} (R : A -> B -> C -> Prop) xs ys zs :
  Forall3 R xs ys zs -> length ys = length xs /\ length zs = length xs.
Proof. induction 1 as [|x y z xs ys zs _ _ [IH1 IH2]]; cbn; auto. Qed.

(* a property of the arguments against the definition's parameter types: all of
   the result type for a variadic definition, else position by position *)
Definition sig_holds {A} (P : A -> ty -> Prop) (d : fn_def) (ret : ty) (n : nat) (l : list A) : Prop :=
  if fn_variadic_same d then Forall (fun x => P x ret) l
  else Forall2 (fun x kt => P x (snd kt)) l (firstn n (sig_of d)).

(* it carries over to whatever stands in the arguments' positions (their values,
   for arguments of the declared types) *)
Lemma sig_holds_impl {A B} (P : A -> ty -> Prop) (Q : B -> ty -> Prop) d ret n al vs :
  Forall2 (fun x r => forall t, P x t -> Q r t) al vs -> sig_holds P d ret n al -> sig_holds Q d ret n vs.
Proof.
  unfold sig_holds. intros H. destruct (fn_variadic_same d); [|generalize (firstn n (sig_of d))].
  - induction H; intros Hs; inversion Hs; subst; constructor; auto.
  - induction H; intros sg Hs; inversion Hs; subst; constructor; auto.
Qed.

Definition arity_ok (d : fn_def) (ret : ty) (n : nat) : Prop :=
  if fn_variadic_same d then match ret with TArray _ | TBytes => True | _ => False end
  else (length (fn_params d) <= n <= length (sig_of d))%nat /\ ret = fn_ret d.

(* the type of a call before indexing: an array of results when the first argument has [*] *)
Definition call_ty (a : args) (ret : ty) : ty := if args_mapped (args_to_list a) then TArray ret else ret.

Lemma sig_length d : length (sig_of d) = (length (fn_params d) + length (fn_opt_params d))%nat.
Proof. unfold sig_of. now rewrite app_length, map_length. Qed.

Section Typing.
Variable sch : scheme.

(* The typing rule of a comparison admits two forms: a primitive left side
   with an operator for its type, or a bare container of booleans. *)
Lemma wt_cmp_inv lhs op t :
  wt_lexpr sch (EComparison lhs op) = Some t ->
  exists tl, wt_iexpr sch lhs = Some tl /\
    ((is_prim tl = true /\ op_ok sch tl op = true /\
      t = if Nat.eqb (map_each_count (iexpr_idx lhs)) 0 then TBool else TArray TBool) \/
     (ty_next tl = Some TBool /\ op = CIsTrue /\ map_each_count (iexpr_idx lhs) = 0%nat /\ t = TArray TBool)).
Proof.
  cbn [wt_lexpr]. destruct (wt_iexpr sch lhs) as [tl|]; [|discriminate]. intros H. exists tl. split; [reflexivity|].
  destruct tl as [| | | |[]|[]]; cbn [is_prim andb] in H |- *; try discriminate H.
  (* Bytes, Int, Ip: the rule is [op_ok] *)
  2-4: destruct (op_ok sch _ op); [left; now injection H as <-|discriminate H].
  (* Bool and the containers: only IsTrue, which is what [op_ok] says for Bool *)
  all: destruct op; try discriminate H.
  1: left; now injection H as <-.
  all: destruct (Nat.eqb _ 0) eqn:En; [apply Nat.eqb_eq in En; right; now injection H as <-|discriminate H].
Qed.

Lemma ty_cmp_agree lhs op t tl :
  wt_lexpr sch (EComparison lhs op) = Some t -> wt_iexpr sch lhs = Some tl ->
  ty_cmp_of (iexpr_idx lhs) (Some tl) op = Some t.
Proof.
  intros H Htl. destruct (wt_cmp_inv lhs op t H) as (tl' & Htl' & Hcase). rewrite Htl in Htl'. injection Htl' as <-.
  unfold ty_cmp_of. destruct Hcase as [(Hp & Hop & ->)|(Hn & -> & -> & ->)].
  - destruct (map_each_count (iexpr_idx lhs)); [|reflexivity]. destruct op; try reflexivity.
    destruct tl; try discriminate Hop. reflexivity.
  - destruct tl as [| | | |[]|[]]; try discriminate Hn; reflexivity.
Qed.

Lemma wt_lcons_inv e r t :
  wt_lexprs sch t (LCons e r) = true -> wt_lexpr sch e = Some t /\ wt_lexprs sch t r = true.
Proof.
  cbn [wt_lexprs]. destruct (wt_lexpr sch e) as [t'|]; [|discriminate]. intros H.
  apply andb_true_iff in H. destruct H as [Ht Hr]. apply ty_eqb_eq in Ht as <-. now split.
Qed.

(* the operands of a combination are a non-empty chain of its type *)
Lemma wt_combining_inv op items t :
  wt_lexpr sch (ECombining op items) = Some t ->
  exists e0 rest, items = LCons e0 rest /\ wt_lexprs sch t items = true.
Proof.
  cbn [wt_lexpr]. destruct items as [|e0 rest]; [discriminate|]. cbn [wt_lexprs].
  destruct (wt_lexpr sch e0) as [t0|]; [|discriminate].
  destruct (wt_lexprs sch t0 rest) eqn:Er; [|discriminate]. intros [= <-].
  exists e0, rest. now rewrite ty_eqb_refl, Er.
Qed.

Lemma wt_quant_index_inv q a t :
  wt_lexpr sch (EQuantIndex q a) = Some t ->
  t = TBool /\ wt_iexpr sch a = Some (TArray TBool) /\ map_each_count (iexpr_idx a) = 0%nat.
Proof.
  cbn [wt_lexpr]. destruct (wt_iexpr sch a) as [[| | | |[]|]|]; try discriminate.
  destruct (Nat.eqb _ 0) eqn:En; [|discriminate]. apply Nat.eqb_eq in En. intros [= <-]. auto.
Qed.

Lemma wt_quant_logical_inv q a t :
  wt_lexpr sch (EQuantLogical q a) = Some t -> t = TBool /\ wt_lexpr sch a = Some (TArray TBool).
Proof.
  cbn [wt_lexpr]. destruct (wt_lexpr sch a) as [[| | | |[]|]|]; try discriminate. intros [= <-]. auto.
Qed.

Lemma wt_args_sig_spec a : forall sig,
  wt_args_sig sch sig a = true ->
  (length (args_to_list a) <= length sig)%nat /\
  Forall2 (fun x kt => wt_arg sch x = Some (snd kt)) (args_to_list a) (firstn (length (args_to_list a)) sig).
Proof.
  induction a as [|x r IH]; intros sig H; cbn [args_to_list length firstn].
  - split; [lia|constructor].
  - cbn [wt_args_sig] in H. destruct sig as [|[k t] sig']; [discriminate|].
    apply andb_true_iff in H. destruct H as [H Hr]. apply andb_true_iff in H. destruct H as [_ Ht].
    destruct (wt_arg sch x) as [t'|] eqn:Ex; [|discriminate]. apply ty_eqb_eq in Ht. subst t'.
    destruct (IH sig' Hr) as (Hl & Hfa). cbn [length firstn]. split; [lia|]. constructor; auto.
Qed.

Lemma wt_args_same_spec a : forall ot n,
  wt_args_same sch a = Some (ot, n) ->
  n = length (args_to_list a) /\
  match ot with
  | None => args_to_list a = []
  | Some t => args_to_list a <> [] /\ Forall (fun x => wt_arg sch x = Some t) (args_to_list a)
  end.
Proof.
  induction a as [|x r IH]; intros ot n H; cbn [wt_args_same args_to_list] in H |- *.
  - injection H as <- <-. split; reflexivity.
  - destruct (wt_arg sch x) as [t|] eqn:Ex; [|discriminate].
    destruct (wt_args_same sch r) as [[ot' n']|] eqn:Er; [|discriminate].
    destruct (IH ot' n' eq_refl) as (Hn & Hot). destruct ot' as [t'|].
    + destruct (ty_eqb t t') eqn:Et; [|discriminate]. apply ty_eqb_eq in Et. subst t'.
      injection H as <- <-. split; [cbn; lia|]. split; [discriminate|]. destruct Hot as (_ & Hall). constructor; auto.
    + injection H as <- <-. split; [cbn; lia|]. split; [discriminate|]. rewrite Hot. constructor; auto.
Qed.

Lemma wt_call_inv fn a idx t :
  wt_iexpr sch (ICall fn a idx) = Some t ->
  exists d ret,
    fn_of sch fn = Some d /\
    forallb (fun x => Nat.eqb (arg_map_each_count x) 0) (tl (args_to_list a)) = true /\
    arity_ok d ret (length (args_to_list a)) /\
    sig_holds (fun x t => wt_arg sch x = Some t) d ret (length (args_to_list a)) (args_to_list a) /\
    (fn_variadic_same d = true -> args_to_list a <> []) /\
    ty_index_ok (call_ty a ret) idx = Some t.
Proof.
  cbn [wt_iexpr]. destruct (fn_of sch fn) as [d|]; [|discriminate].
  destruct (forallb _ (tl (args_to_list a))); [|discriminate]. cbn [negb].
  match goal with |- match ?X with _ => _ end = _ -> _ => destruct X as [ret|] eqn:Eret; [|discriminate] end.
  intros Hidx. exists d, ret. unfold arity_ok, sig_holds. destruct (fn_variadic_same d).
  - destruct (wt_args_same sch a) as [[[tt|] n]|] eqn:Es; try discriminate Eret.
    destruct (wt_args_same_spec a _ _ Es) as (_ & Hne & Hall).
    destruct (Nat.leb 2 n); [|discriminate]. destruct tt; try discriminate Eret; injection Eret as <-; repeat split; auto.
  - destruct (_ && _)%bool eqn:Ec in Eret; [|discriminate]. injection Eret as <-.
    apply andb_true_iff in Ec. destruct Ec as [Ec Hs]. apply andb_true_iff in Ec. destruct Ec as [E1 E2].
    apply Nat.leb_le in E1, E2. destruct (wt_args_sig_spec a _ Hs) as (_ & Hall). fold (sig_of d) in Hall.
    rewrite sig_length. repeat split; auto. discriminate.
Qed.

Lemma sig_holds_some d ret n al :
  sig_holds (fun x t => wt_arg sch x = Some t) d ret n al -> forall x, In x al -> exists t, wt_arg sch x = Some t.
Proof.
  unfold sig_holds. destruct (fn_variadic_same d); [rewrite Forall_forall; eauto|].
  generalize (firstn n (sig_of d)). induction al as [|y al IH]; intros sg H x Hin; [destruct Hin|]. destruct Hin as [<-|Hin]; inversion H; subst; eauto.
Qed.

(* the model's static types of a well-typed call, given those of its first argument *)
Lemma call_ty_agree fn a d ret :
  fn_of sch fn = Some d -> arity_ok d ret (length (args_to_list a)) ->
  sig_holds (fun x t => wt_arg sch x = Some t) d ret (length (args_to_list a)) (args_to_list a) ->
  (fn_variadic_same d = true -> args_to_list a <> []) ->
  (forall x r, a = ACons x r -> forall t, wt_arg sch x = Some t -> ty_arg sch x = Some t) ->
  ty_ret sch fn a = Some ret /\
  ty_call sch fn a = Some (call_ty a ret).
Proof.
  intros Ed Har Hsig Hne Hag.
  assert (H : (if fn_variadic_same d then ty_args_first sch a else Some (fn_ret d)) = Some ret).
  { unfold arity_ok, sig_holds in Har, Hsig. destruct (fn_variadic_same d); [|now destruct Har as (_ & ->)].
    destruct a as [|x r]; [now elim Hne|]. exact (Hag x r eq_refl ret (Forall_inv Hsig)). }
  unfold ty_ret, ty_call, ty_call_of, call_ty. rewrite Ed, H. split; [reflexivity|].
  destruct a as [|x r]; [reflexivity|]. cbn [args_to_list args_mapped]. now destruct (Nat.ltb 0 (arg_map_each_count x)).
Qed.

End Typing.


Definition defs_of (d : fn_def) (n : nat) : list vres :=
  if fn_variadic_same d then [] else defaults_of d n.

Lemma compile_simple_spec d ret n :
  arity_ok d ret n ->
  exists callf, compile_simple d n = Some callf /\
                forall vs, length vs = n -> callf vs = fn_impl d (vs ++ defs_of d n).
Proof.
  unfold arity_ok, defs_of. destruct (fn_variadic_same d) eqn:Ev; intros Ha.
  - rewrite (compile_simple_variadic d n Ev). eexists; split; [reflexivity|]. intros vs _. now rewrite app_nil_r.
  - destruct Ha as ((H1 & H2) & _). rewrite sig_length in H2.
    rewrite (compile_simple_fixed d n Ev H1 H2). eexists; split; [reflexivity|].
    intros vs Hl. cbn beta. rewrite <- Hl, Nat.eqb_refl. reflexivity.
Qed.

Lemma impl_ok d ret n vs :
  fn_ok d -> arity_ok d ret n -> length vs = n -> sig_holds (fun r t => vres_typed r t = true) d ret n vs ->
  exists r, fn_impl d (vs ++ defs_of d n) = Some r /\
            match r with Some v => has_type v ret = true | None => True end.
Proof.
  unfold fn_ok, arity_ok, sig_holds, defs_of. intros (Hwf & Hok) Ha Hl Ht.
  destruct (fn_variadic_same d).
  - rewrite app_nil_r. apply Hok; assumption.
  - destruct Ha as ((H1 & H2) & ->). apply Hok.
    rewrite <- (firstn_skipn n (sig_of d)). apply Forall2_app; [exact Ht|now apply defaults_typed].
Qed.

(* [compute] over the elements of the first argument, the other arguments being the same [ex] for each *)
Lemma compute_spec ret (callf : list vres -> M (option value)) d n r0 ex (extra : value -> M (list vres)) t1 :
  (forall vs, length vs = n -> callf vs = fn_impl d (vs ++ defs_of d n)) ->
  fn_ok d -> arity_ok d ret n -> S (length ex) = n ->
  (forall e, extra e = Some ex) ->
  vres_container r0 ->
  (forall l, vres_elems r0 = Some l -> Forall (fun v => has_type v t1 = true) l) ->
  (forall e, has_type e t1 = true -> sig_holds (fun r t => vres_typed r t = true) d ret n (VOk e :: ex)) ->
  exists base,
    compute r0 ret callf extra = Some (res_of base (TArray ret)) /\
    (forall v, base = Some v -> has_type v (TArray ret) = true) /\
    match vres_elems r0 with
    | None => base = None
    | Some elts =>
        exists os, all_some (map (fun x => fn_impl d (VOk x :: ex ++ defs_of d n)) elts) = Some os /\
                   base = Some (VArray ret (filter_map_opt (fun r => r) os))
    end.
Proof.
  intros Hcallf Hok Har Hn Hextra Hcont Helems Htyped.
  destruct r0 as [v|ta]; cbn [vres_elems].
  2:{ exists None. repeat split. discriminate. }
  destruct (filter_map_call_spec ret callf (fun vs => fn_impl d (vs ++ defs_of d n)) ex extra (elems v))
    as (os & H1 & H2 & H3).
  - intros e _. apply Hextra.
  - intros e He. specialize (Helems (elems v) eq_refl). rewrite Forall_forall in Helems.
    destruct (impl_ok d ret n (VOk e :: ex) Hok Har) as (o & Ho & Hto); [cbn; lia|apply Htyped; auto|].
    exists o. rewrite Hcallf by (cbn; lia). auto.
  - exists (Some (VArray ret (filter_map_opt (fun r => r) os))).
    split; [|split; [intros x [= <-]; now apply has_type_array_intro|exists os; split; [exact H1|reflexivity]]].
    destruct v; try destruct Hcont; cbn [compute elems] in H2 |- *; rewrite H2; reflexivity.
Qed.

Section Main.
Variable sch : scheme.
Variable c : ctx.
Hypothesis Hc : ctx_ok sch c = true.
Hypothesis Hf : fns_ok sch.

Definition shape (t : ty) (r : lres) : Prop :=
  match t, r with
  | TBool, ROne _ => True
  | TArray TBool, RVec _ => True
  | _, _ => False
  end.

Lemma shape_ty t r : shape t r -> t = TBool \/ t = TArray TBool.
Proof. destruct t as [| | | |[]|], r; cbn; tauto. Qed.

Definition runs (ce : cexpr) (r : lres) : Prop :=
  match ce, r with
  | COne f, ROne b => f c = Some b
  | CVec f, RVec l => f c = Some l
  | _, _ => False
  end.


(* the value source used when an index expression is the left side of a comparison *)
Definition ident_src (e : iexpr) : M (ctx -> M (option value)) :=
  match e with
  | IField f _ => Some (src_field sch f)
  | ICall fn a _ =>
      cargs <- compile_args sch a ;; call <- compile_call_with sch fn a cargs ;; Some (src_call call)
  end.

Definition cmp_compile (op : cmpop) (lhs_ty : M ty) (src : ctx -> M (option value)) (idx : list index)
           (comp : comparer) (default : bool) : M cexpr :=
  match op with
  | CIsTrue =>
      t <- lhs_ty ;;
      match t with
      | TBool => Some (compile_with src idx false comp)
      | TArray TBool | TMap TBool => Some (CVec (compile_vec_with src idx comp))
      | _ => None
      end
  | _ => Some (compile_with src idx default comp)
  end.

Lemma compile_cmp_eq lhs op :
  compile_lexpr sch (EComparison lhs op) =
  (src <- ident_src lhs ;;
   cmp_compile op (ty_iexpr sch lhs) src (iexpr_idx lhs) (fst (cmp_fn sch op)) (snd (cmp_fn sch op))).
Proof.
  cbn [compile_lexpr]. destruct (cmp_fn sch op) as [comp default], lhs as [f idx|fn a idx]; cbn [ident_src iexpr_idx fst snd].
  - reflexivity.
  - destruct (compile_args sch a) as [cargs|]; [|reflexivity].
    destruct (compile_call_with sch fn a cargs) as [call|]; reflexivity.
Qed.

Lemma cmp_compile_prim op t src idx :
  op_ok sch t op = true ->
  cmp_compile op (Some t) src idx (fst (cmp_fn sch op)) (snd (cmp_fn sch op)) =
  Some (compile_with src idx (nil_result sch op) (fst (cmp_fn sch op))).
Proof.
  intros Hop. rewrite cmp_fn_default. destruct op; try reflexivity.
  destruct t; try discriminate Hop. reflexivity.
Qed.

Definition cmp_plain (op : cmpop) (base : option value) (idx : list index) : option lres :=
  match select base idx with
  | SAbsent => Some (ROne (nil_result sch op))
  | SOne v => option_map ROne (cmp_holds sch op c v)
  | SMany l => option_map RVec (all_some (map (cmp_holds sch op c) l))
  end.

Definition cmp_bools (base : option value) (idx : list index) : option lres :=
  match select base idx with
  | SOne v => option_map RVec (bools_of (elems v))
  | SAbsent => Some (RVec [])
  | SMany _ => None
  end.

Definition cmp_denote (op : cmpop) (t : ty) (base : option value) (idx : list index) : option lres :=
  match op, t with
  | CIsTrue, (TArray TBool | TMap TBool) => cmp_bools base idx
  | _, _ => cmp_plain op base idx
  end.

Lemma denote_cmp_eq lhs op :
  denote sch (EComparison lhs op) c =
  match denote_ident sch lhs c with
  | Some (base, t0, idx) =>
      match ty_index_spec t0 idx with
      | Some t => cmp_denote op t base idx
      | None => None
      end
  | None => None
  end.
Proof.
  cbn [denote]. destruct (denote_ident sch lhs c) as [[[base t0] idx]|]; [|reflexivity].
  destruct (ty_index_spec t0 idx) as [t|]; [|reflexivity].
  destruct op; try reflexivity; destruct t as [| | | |[]|[]]; reflexivity.
Qed.

Lemma cmp_denote_prim op t base idx : is_prim t = true -> cmp_denote op t base idx = cmp_plain op base idx.
Proof. apply cmp_match_prim. Qed.

Lemma cmp_bools_eq t src idx comp default base :
  ty_next t = Some TBool ->
  cmp_compile CIsTrue (Some t) src idx comp default = Some (CVec (compile_vec_with src idx comp)) /\
  cmp_denote CIsTrue t base idx = cmp_bools base idx.
Proof. destruct t as [| | | |[]|[]]; try discriminate; now split. Qed.

Definition P_lexpr (e : lexpr) : Prop :=
  forall t, wt_lexpr sch e = Some t ->
    ty_lexpr sch e = Some t /\
    exists ce r, compile_lexpr sch e = Some ce /\ denote sch e c = Some r /\ runs ce r /\ shape t r.

Definition P_lexprs (l : lexprs) : Prop :=
  forall t, wt_lexprs sch t l = true ->
    exists ces rs, compile_lexprs sch l = Some ces /\ Forall2 runs ces rs /\
                   Forall2 (fun e r => denote sch e c = Some r) (lexprs_to_list l) rs /\
                   Forall (shape t) rs /\
                   Forall (fun e => ty_lexpr sch e = Some t) (lexprs_to_list l).

Definition P_iexpr (e : iexpr) : Prop :=
  forall t, wt_iexpr sch e = Some t ->
    ty_iexpr sch e = Some t /\
    exists base t0 src,
      denote_ident sch e c = Some (base, t0, iexpr_idx e) /\
      ty_index_ok t0 (iexpr_idx e) = Some t /\
      (forall v, base = Some v -> has_type v t0 = true) /\
      ident_src e = Some src /\ src c = Some base /\
      exists cv, compile_iexpr_value sch e = Some cv /\
                 match cv c with Some r => civ_post base (iexpr_idx e) t r | None => False end.

(* one argument: its static type, the result of its compiled closure, its denotation *)
Definition arg_rel' (x : arg) (r : vres) (d : option (option (list value)) * ty * vres) : Prop :=
  let '(m, t, r') := d in
  wt_arg sch x = Some t /\ ty_arg sch x = Some t /\
  (arg_map_each_count x = 0%nat -> m = None /\ r' = r /\ vres_typed r t = true) /\
  (arg_map_each_count x <> 0%nat ->
     m = Some (vres_elems r) /\ vres_container r /\
     forall l, vres_elems r = Some l -> Forall (fun v => has_type v t = true) l).

Definition P_arg (x : arg) : Prop :=
  forall t, wt_arg sch x = Some t ->
    exists cv r d, compile_arg sch x = Some cv /\ cv c = Some r /\ denote_arg sch x c = Some d /\ arg_rel' x r d.

Definition P_args (a : args) : Prop :=
  (forall x, In x (args_to_list a) -> exists t, wt_arg sch x = Some t) ->
  exists cvs rs ds, compile_args sch a = Some cvs /\ evals c cvs rs /\
                    denote_args sch a c = Some ds /\ Forall3 arg_rel' (args_to_list a) rs ds.

Lemma comparer_ok t op :
  op_ok sch t op = true ->
  forall x, has_type x t = true ->
    exists b, fst (cmp_fn sch op) x c = Some b /\ cmp_holds sch op c x = Some b.
Proof.
  intros Hop x Hx. exact (cmp_fn_spec sch t op x c Hop Hx (ctx_ok_lists sch c Hc)).
Qed.

(* [compile_with] on a primitive left side runs to the denotation of the comparison *)
Lemma compile_with_runs src base t0 idx t op :
  src c = Some base -> (forall v, base = Some v -> has_type v t0 = true) -> ty_index_ok t0 idx = Some t ->
  op_ok sch t op = true ->
  exists r, cmp_plain op base idx = Some r /\
            runs (compile_with src idx (nil_result sch op) (fst (cmp_fn sch op))) r /\
            shape (if Nat.eqb (map_each_count idx) 0 then TBool else TArray TBool) r.
Proof.
  intros Hsrc Hbase Hidx Hop. unfold cmp_plain.
  pose proof (compile_with_spec c src base t0 idx t (nil_result sch op) _ (cmp_holds sch op c)
                                Hsrc Hbase Hidx (comparer_ok t op Hop)) as Hcw.
  destruct (compile_with src idx _ _) as [f|f].
  - destruct Hcw as (-> & b & Hfb & Hsel). exists (ROne b).
    destruct (select base idx) as [|x|l]; [subst b|rewrite Hsel|destruct Hsel]; repeat split; assumption.
  - destruct Hcw as (Hn & l & xs & Hfl & -> & ->). apply Nat.eqb_neq in Hn. rewrite Hn.
    exists (RVec l). repeat split; assumption.
Qed.

Lemma P_comparison lhs op : P_iexpr lhs -> P_lexpr (EComparison lhs op).
Proof.
  intros IH t Hwt. destruct (wt_cmp_inv sch lhs op t Hwt) as (tl & Etl & Hcase).
  destruct (IH tl Etl) as (Hty & base & t0 & src & Hden & Hidx & Hbase & Hsrc & Hsc & _).
  split; [cbn [ty_lexpr]; rewrite Hty; now apply (ty_cmp_agree sch)|].
  rewrite compile_cmp_eq, Hsrc, Hty, denote_cmp_eq, Hden, ty_index_spec_eq, Hidx.
  destruct Hcase as [(Hp & Hop & ->)|(Hn & -> & En & ->)].
  - rewrite (cmp_compile_prim op tl src _ Hop), (cmp_denote_prim op tl base _ Hp).
    destruct (compile_with_runs src base t0 _ tl op Hsc Hbase Hidx Hop) as (r & Hr & Hruns & Hshape). eauto 6.
  - destruct (cmp_bools_eq tl src (iexpr_idx lhs) (fst (cmp_fn sch CIsTrue)) (snd (cmp_fn sch CIsTrue)) base Hn)
      as (-> & ->). unfold cmp_bools.
    destruct (compile_vec_bools c src base t0 _ tl Hsc Hbase Hidx Hn En) as (l & Hl & Hsel).
    exists (CVec (compile_vec_with src (iexpr_idx lhs) (fun v _ => cast_bool v))), (RVec l).
    destruct (select base (iexpr_idx lhs)); [subst l|rewrite Hsel|destruct Hsel]; repeat split; exact Hl.
Qed.

Lemma runs_one ce r : runs ce r -> shape TBool r -> exists f b, ce = COne f /\ r = ROne b /\ f c = Some b.
Proof. destruct ce, r; cbn; try contradiction; eauto. Qed.

Lemma runs_vec ce r : runs ce r -> shape (TArray TBool) r -> exists f l, ce = CVec f /\ r = RVec l /\ f c = Some l.
Proof. destruct ce, r; cbn; try contradiction; eauto. Qed.

(* operands that all have the shape of [t] are all built by its constructor *)
Lemma split_same {X} (C : (ctx -> M X) -> cexpr) (R : X -> lres) t ces rs :
  (forall ce r, runs ce r -> shape t r -> exists f x, ce = C f /\ r = R x /\ f c = Some x) ->
  Forall2 runs ces rs -> Forall (shape t) rs ->
  exists fs xs, ces = map C fs /\ rs = map R xs /\ evals c fs xs.
Proof.
  intros Hinv. induction 1 as [|ce r ces rs Hr _ IH]; intros Hs; [exists [], []; repeat split; constructor|].
  inversion Hs as [|? ? Hs1 Hs2]; subst. destruct (IH Hs2) as (fs & xs & -> & -> & Hev).
  destruct (Hinv ce r Hr Hs1) as (f & x & -> & -> & Hfx). exists (f :: fs), (x :: xs). repeat split. now constructor.
Qed.

Lemma P_combining op items : P_lexprs items -> P_lexpr (ECombining op items).
Proof.
  intros IH t Hwt. destruct (wt_combining_inv sch op items t Hwt) as (e0 & rest & -> & Hall).
  destruct (IH t Hall) as (ces & rs & Hcomp & Hruns & Hden & Hshape & Htys).
  cbn [lexprs_to_list] in Hden, Htys.
  inversion Hden as [|? r0 ? rs' Hd0 Hden']; subst.
  split; [exact (Forall_inv Htys)|].
  cbn [compile_lexpr denote]. rewrite Hcomp, Hd0.
  destruct (shape_ty t r0 (Forall_inv Hshape)) as [-> | ->].
  - (* plain booleans *)
    destruct (split_same COne ROne TBool ces (r0 :: rs') runs_one Hruns Hshape) as (fs & [|b0 bs] & -> & [= -> ->] & Hev).
    inversion Hev as [|f0 ? fs' ? Hf0 Hev']; subst. cbn [map]. rewrite all_one_map.
    eexists _, _. split; [reflexivity|]. split; [now apply (denote_fold_same sch ROne (lop_spec op) op c rest bs)|].
    split; [|exact I]. now apply combine_one_spec.
  - (* boolean arrays *)
    destruct (split_same CVec RVec (TArray TBool) ces (r0 :: rs') runs_vec Hruns Hshape) as (fs & [|l0 ls] & -> & [= -> ->] & Hev).
    inversion Hev as [|f0 ? fs' ? Hf0 Hev']; subst. cbn [map]. rewrite all_vec_map.
    eexists _, _. split; [reflexivity|]. split; [now apply (denote_fold_same sch RVec (map2_trunc (lop_spec op)) op c rest ls)|].
    split; [|exact I]. cbn [runs]. unfold combine_vec. rewrite Hf0. now apply run_vec_spec.
Qed.

Lemma lexpr_runs t ce r : runs ce r -> shape t r ->
  exists ce' r', Some ce = Some ce' /\ Some r = Some r' /\ runs ce' r' /\ shape t r'.
Proof. eauto 6. Qed.

Lemma P_paren e : P_lexpr e -> P_lexpr (EParen e).
Proof. intros IH t Hwt. exact (IH t Hwt). Qed.

Lemma P_not e : P_lexpr e -> P_lexpr (ENot e).
Proof.
  intros IH t Hwt. destruct (IH t Hwt) as (Hty & ce & r & H1 & H2 & H3 & H4).
  split; [exact Hty|]. cbn [compile_lexpr denote]. rewrite H1, H2.
  destruct ce as [f|f], r as [b|l]; try contradiction; cbn [runs] in H3;
    (apply lexpr_runs; [cbn; now rewrite H3|exact H4]).
Qed.

Lemma P_quant_index q a : P_iexpr a -> P_lexpr (EQuantIndex q a).
Proof.
  intros IH t Hwt. destruct (wt_quant_index_inv sch q a t Hwt) as (-> & Ea & En). split; [reflexivity|].
  destruct (IH _ Ea) as (_ & base & t0 & src & Hden & Hidx & Hbase & _ & _ & cv & Hcv & Hpost).
  cbn [compile_lexpr denote]. rewrite Hcv, Hden.
  destruct (cv c) as [r|] eqn:Er; [|destruct Hpost]. destruct (proj1 Hpost En) as (-> & Hrt).
  destruct (select base (iexpr_idx a)) as [|x|xs] eqn:Es; cbn [sel_vres vres_typed] in Hrt, Er |- *.
  - apply lexpr_runs; [|exact I]. cbn [runs]. now rewrite Er.
  - destruct (has_type_array _ _ Hrt) as (l & -> & Hl).
    destruct (bools_typed l Hl) as (bs & H1 & H2). rewrite H2.
    apply lexpr_runs; [|exact I]. cbn [runs]. rewrite Er, H1. destruct q; reflexivity.
  - destruct (select_plain base _ En xs Es).
Qed.

Lemma P_quant_logical q a : P_lexpr a -> P_lexpr (EQuantLogical q a).
Proof.
  intros IH t Hwt. destruct (wt_quant_logical_inv sch q a t Hwt) as (-> & Ea). split; [reflexivity|].
  destruct (IH _ Ea) as (_ & ce & r & H1 & H2 & H3 & H4).
  destruct (runs_vec ce r H3 H4) as (f & l & -> & -> & Hfl).
  cbn [compile_lexpr denote]. rewrite H1, H2.
  apply lexpr_runs; [|exact I]. cbn [runs]. rewrite Hfl. destruct q; reflexivity.
Qed.

Lemma P_lnil : P_lexprs LNil.
Proof. intros t _. exists [], []. repeat split; constructor. Qed.

Lemma P_lcons e r : P_lexpr e -> P_lexprs r -> P_lexprs (LCons e r).
Proof.
  intros IHe IHr t Hwt. destruct (wt_lcons_inv sch e r t Hwt) as (Ee & Hr).
  destruct (IHe t Ee) as (Hty & ce & re & H1 & H2 & H3 & H4).
  destruct (IHr t Hr) as (ces & rs & H5 & H6 & H7 & H8 & H9).
  exists (ce :: ces), (re :: rs). cbn [compile_lexprs lexprs_to_list]. rewrite H1, H5.
  repeat split; constructor; auto.
Qed.

Lemma P_field f idx : P_iexpr (IField f idx).
Proof.
  intros t Hwt. cbn [wt_iexpr] in Hwt. destruct (field_ty sch f) as [t0|] eqn:Ef; [|discriminate].
  cbn [ty_iexpr iexpr_idx]. rewrite Ef, <- ty_index_ok_eq. split; [exact Hwt|].
  destruct (field_value_ok sch c f t0 Hc Ef) as (o & Hfv & Hfl & Ho).
  exists o, t0, (src_field sch f). cbn [denote_ident ident_src]. rewrite Hfl, Ef.
  split; [reflexivity|]. split; [exact Hwt|]. split; [intros v ->; exact Ho|].
  split; [reflexivity|]. split; [exact Hfv|].
  cbn [compile_iexpr_value]. rewrite Ef, <- ty_index_ok_eq, Hwt.
  apply (compile_index_value_spec c false (field_res sch f t) o t t0 idx t); auto; [|discriminate|intros v ->; exact Ho].
  unfold field_res. rewrite Hfv. destruct o; reflexivity.
Qed.

Lemma P_anil : P_args ANil.
Proof. intros _. exists [], [], []. repeat split; constructor. Qed.

Lemma P_acons x r : P_arg x -> P_args r -> P_args (ACons x r).
Proof.
  intros IHx IHr Hall. cbn [args_to_list] in Hall.
  destruct (Hall x (or_introl eq_refl)) as (t & Ht).
  destruct (IHx t Ht) as (cv & rx & d & H1 & H2 & H3 & H4).
  destruct IHr as (cvs & rs & ds & H5 & H6 & H7 & H8); [intros y Hy; apply Hall; now right|].
  exists (cv :: cvs), (rx :: rs), (d :: ds). cbn [compile_args denote_args args_to_list]. rewrite H1, H3, H5, H7.
  repeat split; constructor; assumption.
Qed.

Lemma arg_rel_plain x r t :
  wt_arg sch x = Some t -> ty_arg sch x = Some t -> arg_map_each_count x = 0%nat -> vres_typed r t = true ->
  arg_rel' x r (None, t, r).
Proof. intros Hw Ht H0 Hr. split; [exact Hw|]. split; [exact Ht|]. split; [auto|intros H; now elim H]. Qed.

Lemma P_alit r : P_arg (ALit r).
Proof.
  intros t [= <-]. eexists _, _, _. do 3 (split; [reflexivity|]).
  apply arg_rel_plain; try reflexivity. destruct r; reflexivity.
Qed.

Lemma P_alogical e : P_lexpr e -> P_arg (ALogical e).
Proof.
  intros IH t Hwt. cbn [wt_arg] in Hwt. destruct (IH t Hwt) as (Hty & ce & r & H1 & H2 & H3 & H4).
  cbn [compile_arg denote_arg]. rewrite H1, H2.
  destruct (shape_ty t r H4) as [-> | ->]; destruct ce as [f|f], r as [b|l]; try contradiction; cbn [runs] in H3;
    (eexists _, _, _; split; [reflexivity|]; split; [cbn beta; rewrite H3; reflexivity|]; split; [reflexivity|];
     apply arg_rel_plain; try assumption; try reflexivity).
  apply has_type_array_intro, Forall_map, Forall_forall. reflexivity.
Qed.

Lemma P_aindex e : P_iexpr e -> P_arg (AIndex e).
Proof.
  intros IH t Hwt. cbn [wt_arg] in Hwt.
  destruct (IH t Hwt) as (Hty & base & t0 & src & Hden & Hidx & Hbase & _ & _ & cv & Hcv & Hpost).
  cbn [compile_arg denote_arg]. rewrite Hcv, Hden, ty_index_spec_eq, Hidx.
  destruct (cv c) as [r|] eqn:Er; [|destruct Hpost]. destruct Hpost as (Hp0 & Hp1).
  eexists _, r, _. split; [reflexivity|]. split; [exact Er|]. split; [reflexivity|].
  cbn [arg_rel' wt_arg ty_arg arg_map_each_count]. split; [exact Hwt|]. split; [exact Hty|].
  destruct (select base (iexpr_idx e)) as [|x|l] eqn:Es; (split; intros En).
  1, 3: destruct (Hp0 En) as (-> & Hrt); auto.
  1, 2: now destruct (Hp1 En).
  - destruct (select_plain base _ En l Es).
  - destruct (Hp1 En) as (He & Hall & Hcont). rewrite He. split; [reflexivity|]. split; [exact Hcont|].
    intros l' Hl'. destruct (prefix_absent base (iexpr_idx e)); [discriminate|]. now injection Hl' as <-.
Qed.

(* arguments without [*]: the denotation carries the value of the closure *)
Lemma plain_args al rs ds :
  Forall3 arg_rel' al rs ds -> forallb (fun x => Nat.eqb (arg_map_each_count x) 0) al = true ->
  map snd ds = rs /\ Forall2 (fun x r => forall t, wt_arg sch x = Some t -> vres_typed r t = true) al rs /\
  match ds with (m, _, _) :: _ => m | [] => None end = None.
Proof.
  induction 1 as [|x r [[m t] r'] xs rs ds (Hw & _ & Hz & _) _ IH]; intros H0; [repeat split; constructor|].
  apply andb_true_iff in H0 as [Hx H0']. apply Nat.eqb_eq in Hx. destruct (Hz Hx) as (-> & -> & Ht). destruct (IH H0') as (IH1 & IH2 & _).
  cbn. rewrite IH1. repeat split. constructor; [|exact IH2]. intros t' Ht'. rewrite Hw in Ht'. now injection Ht' as <-.
Qed.

(* the specification's result type (type of the first argument's denotation for
   a variadic definition) is the model's *)
Lemma ret_of_rel fn a d ret rs ds :
  fn_of sch fn = Some d -> ty_ret sch fn a = Some ret -> Forall3 arg_rel' (args_to_list a) rs ds ->
  (if fn_variadic_same d then match ds with (_, t, _) :: _ => Some t | [] => None end else Some (fn_ret d))
  = Some ret.
Proof.
  unfold ty_ret. intros -> Hret Hrel. destruct (fn_variadic_same d); [|exact Hret].
  destruct a; cbn in Hret, Hrel |- *; inversion Hrel as [|? ? [[m t] r'] ? ? ? (_ & Ht & _)]; subst;
    [discriminate Hret|now rewrite <- Ht].
Qed.

Lemma call_eval fn a d ret cvs rs ds idx :
  fn_of sch fn = Some d -> ty_ret sch fn a = Some ret ->
  arity_ok d ret (length (args_to_list a)) ->
  evals c cvs rs ->
  Forall3 arg_rel' (args_to_list a) rs ds ->
  denote_args sch a c = Some ds ->
  forallb (fun x => Nat.eqb (arg_map_each_count x) 0) (tl (args_to_list a)) = true ->
  sig_holds (fun x t => wt_arg sch x = Some t) d ret (length (args_to_list a)) (args_to_list a) ->
  exists call base,
    compile_call_with sch fn a cvs = Some call /\ call c = Some (res_of base (call_ty a ret)) /\
    (forall v, base = Some v -> has_type v (call_ty a ret) = true) /\
    denote_ident sch (ICall fn a idx) c = Some (base, call_ty a ret, idx).
Proof.
  intros Ed Hret Har Hev Hrel Hden Htl Hsig.
  pose proof (Hf fn d Ed) as Hok.
  destruct (compile_simple_spec d ret _ Har) as (callf & Hcs & Hcallf).
  destruct (Forall3_length _ _ _ _ Hrel) as (Hlrs & Hlds).
  pose proof (ret_of_rel fn a d ret rs ds Ed Hret Hrel) as Hrt.
  destruct (args_mapped (args_to_list a)) eqn:Em.
  - (* [*] in the first argument: one application per element *)
    destruct (args_to_list a) as [|x0 al'] eqn:Eal; [discriminate Em|].
    inversion Hrel as [|? r0 [[m0 tx0] r0'] ? rs' ds' (Hw0 & _ & _ & Hm) Hrel']; subst.
    inversion Hev as [|first ? rest ? Hfirst Hrest]; subst.
    destruct Hm as (-> & Hcont & Helems); [apply Nat.neq_0_lt_0, Nat.ltb_lt, Em|].
    destruct (plain_args al' rs' ds' Hrel' Htl) as (Hsnd & Hty & _).
    destruct (call_mapped_runs c first rest (existsb arg_expensive al') ret callf r0 rs' Hfirst Hrest)
      as (extra & Hextra & Hcall).
    destruct (compute_spec ret callf d _ r0 rs' extra tx0 Hcallf) as (base & Hb1 & Hb2 & Hb3); auto.
    { intros e He. refine (sig_holds_impl _ _ d ret _ (x0 :: al') _ _ Hsig). constructor; [|exact Hty].
      intros t Ht. rewrite Hw0 in Ht. now injection Ht as <-. }
    unfold call_ty. rewrite compile_call_with_eq, Ed, Hret, Eal, Hcs, Em.
    cbn [denote_ident]. rewrite Ed, Hden, Hrt, map_length, Hlds.
    fold (defaults_of d (length (x0 :: al'))). fold (defs_of d (length (x0 :: al'))).
    eexists _, base. split; [reflexivity|]. cbn [tl]. rewrite Hcall. split; [exact Hb1|]. split; [exact Hb2|].
    cbn [map snd tl]. rewrite Hsnd.
    destruct (vres_elems r0) as [elts|]; [destruct Hb3 as (os & -> & ->)|subst base]; reflexivity.
  - (* no [*]: one application to the evaluated arguments *)
    destruct (plain_args (args_to_list a) rs ds Hrel) as (Hsnd & Hty & Hm0).
    { destruct (args_to_list a) as [|x0 al']; [reflexivity|]. cbn in Em, Htl |- *. rewrite Htl. now destruct (arg_map_each_count x0). }
    destruct (impl_ok d ret _ rs Hok Har Hlrs (sig_holds_impl _ _ d ret _ _ rs Hty Hsig)) as (o & Ho & Hto).
    unfold call_ty. rewrite compile_call_with_eq, Ed, Hret, Hcs, Em.
    cbn [denote_ident]. rewrite Ed, Hden, Hrt, map_length, Hlds.
    fold (defaults_of d (length (args_to_list a))). fold (defs_of d (length (args_to_list a))).
    eexists _, o. split; [reflexivity|].
    rewrite (call_plain_runs c cvs ret callf rs o Hev (eq_trans (Hcallf rs Hlrs) Ho) Hto), Hsnd, Hm0, Ho.
    split; [reflexivity|]. split; [intros v ->; exact Hto|reflexivity].
Qed.

Lemma P_call fn a idx : P_args a -> P_iexpr (ICall fn a idx).
Proof.
  intros IH t Hwt. destruct (wt_call_inv sch fn a idx t Hwt) as (d & ret & Ed & Htl & Har & Hsig & Hne & Hidx).
  destruct (IH (sig_holds_some sch _ _ _ _ Hsig)) as (cvs & rs & ds & Hcargs & Hev & Hdargs & Hrel).
  destruct (call_ty_agree sch fn a d ret Ed Har Hsig Hne) as (Hret & Htc).
  { intros x r -> tx Hx. inversion Hrel as [|? ? [[m t'] r'] ? ? ? (Hw & Ht & _)]; subst. congruence. }
  destruct (call_eval fn a d ret cvs rs ds idx Ed Hret Har Hev Hrel Hdargs Htl Hsig)
    as (call & base & Hcall & Hcc & Hbt & Hden).
  cbn [ty_iexpr iexpr_idx]. fold (ty_call sch fn a). rewrite Htc, <- ty_index_ok_eq. split; [exact Hidx|].
  eexists base, _, (src_call call). split; [exact Hden|]. split; [exact Hidx|]. split; [exact Hbt|].
  cbn [ident_src]. rewrite Hcargs, Hcall. split; [reflexivity|].
  split; [unfold src_call; rewrite Hcc; destruct base; reflexivity|].
  cbn [compile_iexpr_value]. rewrite Htc, Hcargs, Hcall.
  eapply (compile_index_value_spec c true call base); eauto.
Qed.

Theorem full_correct_mut :
  (forall e, P_lexpr e) /\ (forall l, P_lexprs l) /\ (forall e, P_iexpr e) /\
  (forall a, P_args a) /\ (forall a, P_arg a).
Proof.
  apply ast_mutind;
    auto using P_combining, P_comparison, P_paren, P_not, P_quant_index, P_quant_logical, P_lnil, P_lcons,
      P_field, P_call, P_anil, P_acons, P_aindex, P_alit, P_alogical.
Qed.

Lemma P_lexpr_filter e :
  wt_lexpr sch e = Some TBool -> P_lexpr e ->
  exists b, run_filter sch e c = Some b /\ denote_filter sch e c = Some b.
Proof.
  intros Hwt H. destruct (H TBool Hwt) as (_ & ce & r & H1 & H2 & H3 & H4).
  destruct (runs_one ce r H3 H4) as (f & b & -> & -> & Hfb).
  exists b. unfold run_filter, denote_filter. rewrite H1, H2. auto.
Qed.

(* C01: a scalar filter is a well-typed filter without calls; the cases of the
   induction it needs do not depend on the function library. *)
Lemma scalar_correct_mut :
  (forall e, scalar sch e = true -> wt_lexpr sch e = Some TBool /\ P_lexpr e) /\
  (forall l, scalars sch l = true -> wt_lexprs sch TBool l = true /\ P_lexprs l) /\
  (forall e : iexpr, True) /\ (forall a : args, True) /\ (forall a : arg, True).
Proof.
  apply ast_mutind; try (intros; exact I); try discriminate.
  - intros op [|e0 rest] IH Hs; [discriminate|]. destruct (IH Hs) as (Hwt & HP).
    split; [|now apply P_combining]. destruct (wt_lcons_inv sch e0 rest TBool Hwt) as (E0 & Er).
    cbn [wt_lexpr]. now rewrite E0, Er.
  - intros [f [|]|] _ op Hs; try discriminate. cbn [scalar] in Hs.
    destruct (field_ty sch f) as [t|] eqn:Et; [|discriminate]. apply andb_true_iff in Hs. destruct Hs as [Hp Hop].
    split; [|apply P_comparison, P_field]. cbn [wt_lexpr wt_iexpr ty_index_ok]. rewrite Et.
    destruct t; try discriminate Hp; cbn [is_prim andb]; rewrite ?Hop; [now destruct op|reflexivity..].
  - intros e IH Hs. destruct (IH Hs). split; [assumption|now apply P_paren].
  - intros e IH Hs. destruct (IH Hs). split; [assumption|now apply P_not].
  - split; [reflexivity|exact P_lnil].
  - intros e IHe r IHr Hs. apply andb_true_iff in Hs. destruct Hs as [He Hr].
    destruct (IHe He) as (Hwe & HPe). destruct (IHr Hr) as (Hwr & HPr).
    split; [cbn [wt_lexprs]; now rewrite Hwe, Hwr|now apply P_lcons].
Qed.

End Main.


Theorem scalar_exec_is_denote sch e c :
  scalar sch e = true -> ctx_ok sch c = true ->
  exists b, run_filter sch e c = Some b /\ denote_filter sch e c = Some b.
Proof.
  intros Hs Hc. destruct (proj1 (scalar_correct_mut sch c Hc) e Hs) as (Hwt & HP). now apply P_lexpr_filter.
Qed.

Theorem filter_exec_is_denote sch e c :
  wt_filter sch e = true -> ctx_ok sch c = true -> fns_ok sch ->
  exists b, run_filter sch e c = Some b /\ denote_filter sch e c = Some b.
Proof.
  intros Hwt Hc Hf. unfold wt_filter in Hwt.
  destruct (wt_lexpr sch e) as [[| | | | |]|] eqn:Et; try discriminate Hwt.
  apply P_lexpr_filter; [exact Et|]. apply (full_correct_mut sch c Hc Hf).
Qed.

(* a value expression yields a value of its static type or a typed absence *)
Theorem value_exec_is_denote sch e c t :
  wt_value sch e = Some t -> ctx_ok sch c = true -> fns_ok sch ->
  exists r, run_value sch e c = Some r /\ denote_value sch e c = Some r /\
            match r with VOk v => has_type v t = true | VAbsent t' => t' = t end.
Proof.
  intros Hwt Hc Hf. unfold wt_value in Hwt.
  destruct (wt_iexpr sch e) as [t'|] eqn:Et; [|discriminate].
  destruct (Nat.eqb (map_each_count (iexpr_idx e)) 0) eqn:En; [|discriminate]. injection Hwt as ->.
  apply Nat.eqb_eq in En.
  destruct (full_correct_mut sch c Hc Hf) as (_ & _ & H & _).
  destruct (H e t Et) as (_ & base & t0 & src & Hden & Hidx & Hbase & _ & _ & cv & Hcv & Hpost).
  unfold run_value, denote_value. rewrite Hcv, Hden, ty_index_spec_eq, Hidx.
  destruct (cv c) as [r|]; [|destruct Hpost]. destruct (proj1 Hpost En) as (-> & Hrt).
  eexists; split; [reflexivity|]. split; [reflexivity|].
  destruct (select base (iexpr_idx e)); try exact Hrt; reflexivity.
Qed.
