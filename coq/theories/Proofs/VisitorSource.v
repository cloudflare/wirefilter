(* C12, the tie to the source text (soundness half): every field identifier in
   the AST that the parser model returns was read by the identifier lexer at
   some position of the input and resolved to that field by the scheme.  Hence
   uses(name) = true implies that the name is written in the text at a place
   where the identifier lexer reads exactly it.  "Every field occurrence is
   such a site" is closed under the parser's constructions
   (Proofs/ParserInd.v). *)
From Coq Require Import List Bool Lia Arith.
From WF Require Import Base.Bytes Lang.Types Lang.Ast
     Parse.Lex Parse.Parser Proofs.ListFacts Proofs.TypingProofs Proofs.ParserProofs Proofs.ParserClosed
     Proofs.LexFacts Proofs.ParserInd Sem.Visitor Spec.C12 Proofs.VisitorProofs.
Import ListNotations.
Local Notation length := List.length (only parsing).

Lemma hit_lexprs_of_list i l :
  hit i (nodes_ls (lexprs_of_list l)) = existsb (fun e => hit i (nodes_l e)) l.
Proof. induction l as [|e r IH]; cbn [lexprs_of_list nodes_ls existsb]; [reflexivity|]. now rewrite hit_app, IH. Qed.

Lemma hit_args_of_list i l :
  hit i (nodes_as (args_of_list l)) = existsb (fun a => hit i (nodes_a a)) l.
Proof. induction l as [|a r IH]; cbn [args_of_list nodes_as existsb]; [reflexivity|]. now rewrite hit_app, IH. Qed.

Lemma hit_combine i lhs op rhs :
  hit i (nodes_l (combine lhs op rhs)) = hit i (nodes_l lhs) || hit i (nodes_l rhs).
Proof.
  destruct (combine_cases lhs op rhs) as [->|(o & items & -> & ->)].
  { change (hit i (nodes_l lhs ++ nodes_l rhs ++ []) = hit i (nodes_l lhs) || hit i (nodes_l rhs)).
    now rewrite app_nil_r, hit_app. }
  change (hit i (nodes_ls (lexprs_of_list (lexprs_to_list items ++ [rhs]))) = hit i (nodes_ls items) || hit i (nodes_l rhs)).
  rewrite hit_lexprs_of_list, existsb_app, <- hit_lexprs_of_list, lexprs_of_to_list. cbn [existsb]. now rewrite orb_false_r.
Qed.

Section Source.
Variable sch : scheme.
Variable w : bytes.

Definition site (i : nat) : Prop :=
  exists sfx name after,
    suffix sfx w /\ lex_ident_name sfx = LOk name after /\ scheme_get sch name = Some (IdField i).

Definition sited (l : list node) : Prop := forall i, hit i l = true -> site i.

Lemma sites_closed : closed sch w (fun e => sited (nodes_l e)) (fun e => sited (nodes_i e)) (fun a => sited (nodes_a a)).
Proof.
  constructor; try (intros; assumption).
  - intros lhs op rhs Hl Hr i Hi. rewrite hit_combine in Hi. apply orb_true_iff in Hi. destruct Hi; auto.
  - intros i name rest k idx Hs En Eg j Hj. cbn in Hj. rewrite orb_false_r in Hj. apply Nat.eqb_eq in Hj. subst j.
    exists i, name, rest. auto.
  - intros fn l idx H i Hi. change (hit i (nodes_as (args_of_list l)) = true) in Hi.
    rewrite hit_args_of_list in Hi. apply existsb_exists in Hi. destruct Hi as (a & Ha & Hh).
    rewrite Forall_forall in H. exact (H a Ha i Hh).
  - intros r _ i Hi. discriminate Hi.
Qed.

End Source.

Definition field_written (sch : scheme) (w : bytes) (i : nat) : Prop :=
  exists before name after,
    names_field sch name i /\ lex_ident_name (name ++ after) = LOk name after /\ w = before ++ name ++ after.

Lemma site_written sch w i : site sch w i -> field_written sch w i.
Proof.
  intros (sfx & name & after & [p Hp] & Hl & Hg).
  pose proof (lex_ident_name_prefix _ _ _ Hl). subst sfx.
  exists p, name, after. split; [|split; [exact Hl|exact Hp]].
  apply get_field_some. unfold get_field. now rewrite Hg.
Qed.

Theorem filter_idents_in_source sch st text e rest i :
  parse_filter sch st text = LOk e rest -> occurs i (NL e) -> field_written sch (trim text) i.
Proof.
  intros Hp Ho. apply occursb_iff in Ho.
  exact (site_written _ _ _ (parse_filter_ind sch st text _ _ _ e rest (sites_closed sch _) Hp i Ho)).
Qed.

Theorem value_idents_in_source sch st text e rest i :
  parse_value sch st text = LOk e rest -> occurs i (NI e) -> field_written sch (trim text) i.
Proof.
  intros Hp Ho. apply occursb_iff in Ho.
  exact (site_written _ _ _ (parse_value_ind sch st text _ _ _ e rest (sites_closed sch _) Hp i Ho)).
Qed.

Lemma rename_nth sch i fresh fd :
  nth_error (sc_fields sch) i = Some fd ->
  nth_error (sc_fields (rename_field sch i fresh)) i =
  Some {| fd_name := fresh; fd_ty := fd_ty fd; fd_optional := fd_optional fd |}.
Proof.
  intros Hn. unfold rename_field. cbn [sc_fields].
  assert (Hlt : (i < length (sc_fields sch))%nat) by (apply nth_error_Some; congruence).
  rewrite nth_error_app2; rewrite firstn_length_le by lia; [|lia].
  rewrite Nat.sub_diag, (skipn_nth _ _ _ Hn). reflexivity.
Qed.

(* uses(name) = true: renaming the field changes the parse *)
Theorem uses_true_source_mentions sch st text e i fd :
  names_unique sch -> parse_filter sch st text = LOk e [] -> nth_error (sc_fields sch) i = Some fd ->
  filter_uses sch e (fd_name fd) = Some true -> source_mentions sch st text i.
Proof.
  intros Hu Hp Hn Huse fresh Hfresh Heq. rewrite Hp in Heq.
  assert (Hg : get_field sch (fd_name fd) = Some i).
  { apply get_field_complete; [exact Hu|]. exists fd. now split. }
  unfold filter_uses in Huse. rewrite Hg in Huse. cbn [option_map] in Huse. injection Huse as Huse.
  apply uses_filter_spec in Huse.
  destruct (filter_idents_in_source _ _ _ _ _ _ Heq Huse) as (before & name & after & Hnf & _ & Htrim).
  destruct Hnf as (fd' & Hn' & Hname). rewrite (rename_nth _ _ _ _ Hn) in Hn'. injection Hn' as <-.
  cbn [fd_name] in Hname. subst name. apply Hfresh.
  destruct (trim_infix text) as (a & b & Ht). exists (a ++ before), (after ++ b).
  rewrite Ht at 1. rewrite Htrim. now rewrite !app_assoc.
Qed.
