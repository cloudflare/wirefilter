(* An accepted parse is built by the node constructions of the parser, from
   pieces read by the character-level lexers: predicates on expressions, index
   expressions and arguments that are closed under these constructions hold of
   every [LOk] result of the nine mutually recursive functions of
   Parse/Parser.v.  One induction on the fuel.  [w] is the whole text: a
   successful call on a suffix of w leaves a suffix of w, so the condition for
   a field may say where in the text its name was read. *)
From Coq Require Import List NArith.
From WF Require Import Base.Bytes Lang.Types Lang.Ast
     Sem.Compile Spec.Typing Parse.Lex Parse.Parser Proofs.ParserProofs Proofs.LexFacts.
Import ListNotations.
Local Notation length := List.length (only parsing).

Definition spost {A} (w : bytes) (P : A -> Prop) (r : lres A) : Prop :=
  match r with
  | LOk a rest => P a /\ suffix rest w
  | _ => True
  end.

Lemma spost_ok {A w} {P : A -> Prop} {r a rest} : spost w P r -> r = LOk a rest -> P a.
Proof. intros H ->. exact (proj1 H). Qed.

Lemma spost_bind {A B} w (P : A -> Prop) (Q : B -> Prop) r k :
  spost w P r -> (forall a rest, P a -> suffix rest w -> spost w Q (k a rest)) -> spost w Q (lbind r k).
Proof. destruct r as [a rest|k0 at_ n| |]; cbn; auto. intros [H1 H2] Hk. now apply Hk. Qed.

Lemma spost_map {A B} w (P : A -> Prop) (Q : B -> Prop) (f : A -> B) r :
  spost w P r -> (forall a, P a -> Q (f a)) -> spost w Q (lmap f r).
Proof. intros H HPQ. unfold lmap. eapply spost_bind; [exact H|]. intros a rest Ha Hs. cbn. auto. Qed.

Lemma spost_leaf {A} (i w : bytes) (P : A -> Prop) r : lpost i P r -> suffix i w -> spost w P r.
Proof.
  destruct r as [a rest|k at_ n| |]; cbn; auto. intros [H1 H2] Hs. split; [exact H1|]. eapply suffix_trans; eauto.
Qed.

(* a character-level lexer run at a suffix of w; the continuation sees what it returned *)
Lemma spost_lex {A B} (P : A -> Prop) w (Q : B -> Prop) (lex : bytes -> lres A) i k :
  (forall i, lpost i P (lex i)) -> suffix i w ->
  (forall a rest, lex i = LOk a rest -> suffix rest w -> spost w Q (k a rest)) -> spost w Q (lbind (lex i) k).
Proof.
  intros Hl Hs Hk. specialize (Hl i). destruct (lex i) as [a rest|k0 at_ n| |]; cbn; auto.
  apply Hk; [reflexivity|]. eapply suffix_trans; [apply Hl|exact Hs].
Qed.

Section Ind.
Variable sch : scheme.
Variable st : settings.

Variable w : bytes.
Variable PL : lexpr -> Prop.
Variable PI : iexpr -> Prop.
Variable PA : arg -> Prop.

(* one condition for each way the parser builds a node; a quantifier is built
   from an argument, a call from the arguments accepted so far *)
Record closed : Prop := {
  c_cmp : forall lhs op, PI lhs -> op_src op -> PL (EComparison lhs op);
  c_paren : forall e, PL e -> PL (EParen e);
  c_not : forall e, PL e -> PL (ENot e);
  c_quant_index : forall q e, PA (AIndex e) -> PL (EQuantIndex q e);
  c_quant_logical : forall q e, PA (ALogical e) -> PL (EQuantLogical q e);
  c_combine : forall lhs op rhs, PL lhs -> PL rhs -> PL (combine lhs op rhs);
  c_field : forall i name rest k idx, suffix i w -> lex_ident_name i = LOk name rest ->
      scheme_get sch name = Some (IdField k) -> PI (IField k idx);
  c_call : forall fn l idx, Forall PA l -> PI (ICall fn (args_of_list l) idx);
  c_index : forall e, PI e -> PA (AIndex e);
  c_logical : forall e, PL e -> PA (ALogical e);
  c_lit : forall r, rhs_src r -> PA (ALit r);
}.

Hypothesis C : closed.

Record parsed (f : nat) : Prop := {
  p_logical : forall d i, suffix i w -> spost w PL (lex_logical sch st f d i);
  p_more : forall d lhs minp la, PL lhs -> suffix (snd la) w -> spost w PL (lex_more sch st f d lhs minp la);
  p_inner : forall d rhs rest op, PL rhs -> suffix rest w ->
      spost w (fun p : lexpr * (option logop * bytes) => PL (fst p) /\ suffix (snd (snd p)) w)
            (lex_inner sch st f d rhs rest op);
  p_simple : forall d i, suffix i w -> spost w PL (lex_simple sch st f d i);
  p_index : forall d i, suffix i w -> spost w PI (lex_index_expr sch st f d i);
  p_call : forall d i fn, suffix i w -> spost w (fun a => forall idx, PI (ICall fn a idx)) (lex_call sch st f d i fn);
  p_call_args : forall d i def acc, Forall PA acc -> suffix i w ->
      spost w (Forall PA) (lex_call_args sch st f d i def acc);
  p_arg : forall d i, suffix i w -> spost w PA (lex_arg sch st f d i);
}.

Lemma increase_spost {B} d at_ (Q : B -> Prop) (k : N -> bytes -> lres B) :
  spost w Q (k (d + 1)%N []) -> spost w Q (lbind (increase st d at_) k).
Proof. intros Hk. destruct (increase_cases st d at_) as [[_ ->]|[_ ->]]; [exact I|exact Hk]. Qed.

Lemma with_lhs_closed f d i lhs : PI lhs -> suffix i w -> spost w PL (lex_with_lhs sch st f d i lhs).
Proof.
  intros Hl Hs. destruct f as [|f]; [exact I|].
  destruct (lex_with_lhs_cases sch st f d i lhs) as [->|[->|[->|(lt & _ & ->)]]]; try exact I.
  - split; [now apply (c_cmp C)|exact Hs].
  - pose proof (cmp_rhs_post sch st w lexers_ok lhs lt i Hs) as Hp.
    destruct (cmp_rhs sch st lhs lt i) as [e rest|k at_ n| |] eqn:E; try exact I.
    destruct (cmp_rhs_ok _ _ _ _ _ _ _ E) as (op & -> & Ho). split; [now apply (c_cmp C)|apply Hp].
Qed.

Local Lemma step_logical f : parsed f -> forall d i, suffix i w -> spost w PL (lex_logical sch st (S f) d i).
Proof.
  intros H d i Hs. cbn [lex_logical].
  eapply spost_bind; [apply (p_simple f H); assumption|].
  intros lhs rest Hl Hr. apply (p_more f H); [assumption|sfx].
Qed.

Local Lemma step_more f : parsed f -> forall d lhs minp la, PL lhs -> suffix (snd la) w ->
  spost w PL (lex_more sch st (S f) d lhs minp la).
Proof.
  intros H d lhs minp la Hl Hs. cbn [lex_more]. destruct (fst la) as [op|]; [|split; assumption].
  eapply spost_bind; [apply (p_simple f H); assumption|].
  intros rhs rhs_rest Hrhs Hrr.
  eapply spost_bind; [apply (p_inner f H d rhs rhs_rest op Hrhs Hrr)|].
  intros [rhs' la'] rr' [Hrhs' Hla'] Hrr'. cbn [fst snd] in *.
  destruct (ty_lexpr sch lhs) as [tl|]; [|exact I]. destruct (ty_lexpr sch rhs') as [tr|]; [|exact I].
  destruct (types_combinable tl tr); [|exact I].
  apply (p_more f H); [now apply (c_combine C)|].
  destruct (Nat.ltb _ _); assumption.
Qed.

Local Lemma step_inner f : parsed f -> forall d rhs rest op, PL rhs -> suffix rest w ->
  spost w (fun p : lexpr * (option logop * bytes) => PL (fst p) /\ suffix (snd (snd p)) w)
        (lex_inner sch st (S f) d rhs rest op).
Proof.
  intros H d rhs rest op Hrhs Hs. cbn [lex_inner]. cbv zeta.
  destruct (Nat.leb _ _); [cbn [spost fst snd]; split; [split|]; sfx|].
  eapply spost_bind; [apply (p_more f H); [exact Hrhs|sfx]|].
  intros rhs' rest'. apply (p_inner f H).
Qed.

Local Lemma step_simple f : parsed f -> forall d i, suffix i w -> spost w PL (lex_simple sch st (S f) d i).
Proof.
  intros H d i Hs. rewrite lex_simple_S.
  destruct (starts_with [40] i) as [rest|] eqn:E1.
  { apply increase_spost. eapply spost_bind; [apply (p_logical f H); sfx|].
    intros e rest1 He Hr1. eapply spost_lex; [apply expect_post|sfx|].
    intros _ rest2 _ Hr2. split; [now apply (c_paren C)|assumption]. }
  destruct (lex_alts unary_ops i) as [[u rest]|] eqn:E2.
  { apply increase_spost. eapply spost_bind; [apply (p_simple f H); sfx|].
    intros e rest1 He Hr1. split; [now apply (c_not C)|assumption]. }
  destruct (lex_quant_call i) as [[q rest]|] eqn:E3.
  { apply increase_spost. eapply spost_lex; [apply expect_post|sfx|]. intros _ rest1 _ Hr1.
    eapply spost_bind; [apply (p_arg f H); sfx|]. intros a rest2 Ha Hr2.
    destruct (quant_arg sch q (skip_space rest1) a rest2) as [e r|k at_ n| |] eqn:Eq; try exact I.
    destruct (quant_arg_ok _ _ _ _ _ _ _ Eq) as (Hc & Hq). split.
    - destruct Hq as [(ie & -> & -> & _)|(le & -> & -> & _)];
        [now apply (c_quant_index C)|now apply (c_quant_logical C)].
    - eapply suffix_trans; [exact (lpost_ok_suffix _ _ _ _ _ (expect_post _ _) Hc)|sfx]. }
  eapply spost_bind; [apply (p_index f H); assumption|].
  intros lhs rest Hl Hr. now apply with_lhs_closed.
Qed.

Lemma lex_indexes_spost t fuel i : suffix i w ->
  spost w (fun idx => exists t', ty_index_ok t idx = Some t') (lex_indexes sch st fuel i t []).
Proof.
  intros Hs. eapply spost_leaf; [apply (lex_indexes_post lexers_ok sch st w); [exact Hs|reflexivity]|apply suffix_refl].
Qed.

Local Lemma step_index f : parsed f -> forall d i, suffix i w -> spost w PI (lex_index_expr sch st (S f) d i).
Proof.
  intros H d i Hs. cbn [lex_index_expr].
  pose proof (lf_ident_name lexers_ok i) as Hn.
  destruct (lex_ident_name i) as [name rest|k at_ n| |] eqn:En; try exact I.
  assert (Hrw : suffix rest w) by (eapply suffix_trans; [apply Hn|exact Hs]).
  destruct (scheme_get sch name) as [[j|j]|] eqn:Eg; [| |exact I].
  - destruct (field_ty sch j) as [t|]; [|exact I].
    eapply spost_map; [apply lex_indexes_spost; exact Hrw|].
    intros idx _. exact (c_field C _ _ _ _ _ Hs En Eg).
  - apply increase_spost.
    eapply spost_bind; [apply (p_call f H); exact Hrw|]. intros a rest1 Ha Hr1.
    destruct (ty_call sch j a) as [t|]; [|exact I].
    eapply spost_map; [apply lex_indexes_spost; exact Hr1|].
    intros idx _. apply Ha.
Qed.

Local Lemma step_call f : parsed f -> forall d i fn, suffix i w ->
  spost w (fun a => forall idx, PI (ICall fn a idx)) (lex_call sch st (S f) d i fn).
Proof.
  intros H d i fn Hs. cbn [lex_call]. destruct (fn_of sch fn) as [def|]; [|exact I].
  eapply spost_lex; [apply expect_post|sfx|]. intros _ rest _ Hr.
  eapply spost_map; [apply (p_call_args f H d (skip_space rest) def []); [constructor|sfx]|].
  intros l Hl idx. now apply (c_call C).
Qed.

Local Lemma step_call_args f : parsed f -> forall d i def acc, Forall PA acc -> suffix i w ->
  spost w (Forall PA) (lex_call_args sch st (S f) d i def acc).
Proof.
  intros H d i def acc Hacc Hs. destruct (lex_call_args_S i) as [E|E]; rewrite E.
  - unfold call_args_finish. destruct (Nat.ltb _ _); [exact I|].
    eapply spost_lex; [apply expect_post|sfx|]. intros _ rest _ Hr. split; assumption.
  - unfold call_args_next. apply spost_bind with (P := T).
    { destruct (Nat.eqb (length acc) 0); [split; [exact I|assumption]|].
      eapply spost_leaf; [apply expect_post|exact Hs]. }
    intros _ i1 _ Hi1.
    eapply spost_bind; [apply (p_arg f H); sfx|]. intros a rest Ha Hr.
    destruct (call_args_push sch st f d def acc (skip_space i1) a rest) as [l r|k at_ n| |] eqn:Ep; try exact I.
    destruct (call_args_push_ok _ _ _ _ _ _ _ _ _ _ _ Ep) as (_ & t & _ & _ & <-).
    apply (p_call_args f H); [|sfx]. apply Forall_app. split; [assumption|].
    constructor; [exact Ha|constructor].
Qed.

Lemma arg_literal_spost i : suffix i w -> spost w PA (arg_literal i).
Proof.
  intros Hs. unfold arg_literal.
  pose proof (lf_ip lexers_ok i) as H1. destruct (lex_ip i) eqn:E1; try exact I.
  { split; [eapply (c_lit C), ip_src, E1|]. eapply suffix_trans; [apply H1|exact Hs]. }
  pose proof (lf_int lexers_ok i) as H2. destruct (lex_int i) eqn:E2; try exact I.
  { split; [eapply (c_lit C), int_src, E2|]. eapply suffix_trans; [apply H2|exact Hs]. }
  pose proof (lf_bytes lexers_ok i) as H3. destruct (lex_bytes i) eqn:E3; try exact I.
  split; [eapply (c_lit C), bytes_src, E3|]. eapply suffix_trans; [apply H3|exact Hs].
Qed.

Local Lemma step_arg f : parsed f -> forall d i, suffix i w -> spost w PA (lex_arg sch st (S f) d i).
Proof.
  intros H d i Hs. destruct (lex_arg_S i) as [E|[E|E]]; rewrite E.
  - eapply spost_lex; [apply (lf_bytes lexers_ok)|exact Hs|].
    intros p rest Ep Hr. split; [eapply (c_lit C), bytes_src, Ep|exact Hr].
  - eapply spost_map; [apply (p_logical f H); assumption|]. apply (c_logical C).
  - unfold arg_index_or_cmp. pose proof (p_index f H d i Hs) as Hi.
    destruct (lex_index_expr sch st f d i) as [lhs rest|k a n| |]; try exact I.
    + destruct (lex_alts comparison_ops (skip_space rest)).
      * eapply spost_map; [apply with_lhs_closed; apply Hi|]. apply (c_logical C).
      * split; [apply (c_index C)|]; apply Hi.
    + destruct (let '(c1, c2, c3) := first_chars i in _); [exact I|now apply arg_literal_spost].
Qed.

Theorem parser_ind f : parsed f.
Proof.
  induction f as [|f IH]; [constructor; intros; exact I|]. constructor.
  - now apply step_logical.
  - now apply step_more.
  - now apply step_inner.
  - now apply step_simple.
  - now apply step_index.
  - now apply step_call.
  - now apply step_call_args.
  - now apply step_arg.
Qed.

End Ind.

Arguments p_logical {sch st w PL PI PA f}.
Arguments p_more {sch st w PL PI PA f}.
Arguments p_inner {sch st w PL PI PA f}.
Arguments p_simple {sch st w PL PI PA f}.
Arguments p_index {sch st w PL PI PA f}.
Arguments p_call {sch st w PL PI PA f}.
Arguments p_call_args {sch st w PL PI PA f}.
Arguments p_arg {sch st w PL PI PA f}.

Theorem parse_filter_ind sch st text PL PI PA e r :
  closed sch (trim text) PL PI PA -> parse_filter sch st text = LOk e r -> PL e.
Proof.
  intros C. unfold parse_filter.
  pose proof (p_logical (parser_ind sch st _ PL PI PA C (8 * length (trim text) + 16)) 0%N _ (suffix_refl _)) as H.
  destruct (lex_logical _ _ _ _ _) as [e1 r1|k a n| |]; try discriminate.
  cbn [lbind]. destruct (ty_lexpr sch e1) as [[]|]; try discriminate. destruct r1; [|discriminate].
  intros [= <- _]. apply H.
Qed.

Theorem parse_value_ind sch st text PL PI PA e r :
  closed sch (trim text) PL PI PA -> parse_value sch st text = LOk e r -> PI e.
Proof.
  intros C. unfold parse_value.
  pose proof (p_index (parser_ind sch st _ PL PI PA C (8 * length (trim text) + 16)) 0%N _ (suffix_refl _)) as H.
  destruct (lex_index_expr _ _ _ _ _) as [e1 r1|k a n| |]; try discriminate.
  cbn [lbind]. destruct (Nat.ltb _ _); [discriminate|]. destruct r1; [|discriminate].
  intros [= <- _]. apply H.
Qed.
