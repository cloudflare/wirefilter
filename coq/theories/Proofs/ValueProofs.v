(* Values along index paths: the panicking accessors of the model agree with
   the total accessors of the specification on well-typed values, typing is
   preserved, and the MapEachIterator stack machine computes [flatten]. *)
From Coq Require Import List NArith Bool Lia Arith.
From WF Require Import Base.Bytes Lang.Types Lang.Ast Lang.Context Sem.Compile Spec.Denote
     Spec.Typing Proofs.ListFacts Proofs.ScalarProofs.
Import ListNotations.

Lemma nth_N_eq {A} (l : list A) : forall n, nth_N l n = nth_N' l n.
Proof. induction l as [|x l IH]; intros n; cbn; [reflexivity|]. destruct (n =? 0)%N; auto. Qed.

Lemma nth_N_In {A} (l : list A) : forall n x, nth_N l n = Some x -> In x l.
Proof.
  induction l as [|y l IH]; intros n x H; cbn in H; [discriminate|].
  destruct (n =? 0)%N; [injection H as <-; now left|right; eauto].
Qed.

Lemma assoc_bytes_In {A} k (l : list (bytes * A)) x : assoc_bytes k l = Some x -> In x (map snd l).
Proof.
  induction l as [|[k' y] l IH]; cbn; intros H; [discriminate|].
  destruct (bytes_eqb k k'); [injection H as <-; now left|right; auto].
Qed.

Lemma has_type_array v t : has_type v (TArray t) = true ->
  exists l, v = VArray t l /\ Forall (fun x => has_type x t = true) l.
Proof.
  intros H. apply has_type_inv in H. destruct H as [Ht Hw]. destruct v; try discriminate Ht. injection Ht as ->.
  eexists; split; [reflexivity|]. now apply forallb_Forall.
Qed.

Lemma has_type_array_intro t l : Forall (fun x => has_type x t = true) l -> has_type (VArray t l) (TArray t) = true.
Proof. intros H. apply (has_type_of (VArray t l)). now apply forallb_Forall. Qed.

Lemma has_type_map v t : has_type v (TMap t) = true ->
  exists l, v = VMap t l /\ Forall (fun x => has_type x t = true) (map snd l).
Proof.
  intros H. apply has_type_inv in H. destruct H as [Ht Hw]. destruct v; try discriminate Ht. injection Ht as ->.
  eexists; split; [reflexivity|]. cbn in Hw. apply andb_true_iff in Hw. now apply Forall_map, forallb_Forall.
Qed.

Lemma has_type_prim_inv v t : has_type v t = true ->
  match t with
  | TBool => exists b, v = VBool b
  | TBytes => exists b, v = VBytes b
  | TInt => exists z, v = VInt z
  | TIp => exists a, v = VIp a
  | _ => True
  end.
Proof. intros H. apply has_type_inv in H. destruct H as [<- _]. destruct v; cbn; eauto. Qed.

Lemma elems_typed v t t' :
  has_type v t = true -> ty_next t = Some t' ->
  v_iter v = Some (elems v) /\ Forall (fun x => has_type x t' = true) (elems v).
Proof.
  intros Hv Hn. destruct t; try discriminate Hn; injection Hn as ->.
  - destruct (has_type_array _ _ Hv) as (l & -> & Hl). now split.
  - destruct (has_type_map _ _ Hv) as (l & -> & Hl). now split.
Qed.

Lemma v_get_typed v t i t' :
  has_type v t = true -> ty_index_ok t [i] = Some t' -> index_is_each i = false ->
  v_get v i = Some (get1 v i) /\ (forall x, get1 v i = Some x -> has_type x t' = true).
Proof.
  intros Hv Hi He. destruct t, i; try discriminate Hi; try discriminate He; injection Hi as ->.
  - destruct (has_type_array _ _ Hv) as (l & -> & Hl). cbn. rewrite nth_N_eq. split; [reflexivity|].
    intros x Hx. rewrite <- nth_N_eq in Hx. apply nth_N_In in Hx. rewrite Forall_forall in Hl. auto.
  - destruct (has_type_map _ _ Hv) as (l & -> & Hl). split; [reflexivity|].
    intros x Hx. apply assoc_bytes_In in Hx. rewrite Forall_forall in Hl. auto.
Qed.

Lemma ty_index_ok_app t a b : ty_index_ok t (a ++ b) = (s <- ty_index_ok t a ;; ty_index_ok s b).
Proof. revert t. induction a as [|i a IH]; intros t; [reflexivity|]. cbn. destruct t, i; auto. Qed.

Lemma ty_index_ok_cons t i r t' :
  ty_index_ok t (i :: r) = Some t' -> exists s, ty_index_ok t [i] = Some s /\ ty_index_ok s r = Some t'.
Proof. rewrite (ty_index_ok_app t [i] r : ty_index_ok t (i :: r) = _). destruct (ty_index_ok t [i]) as [s|]; [eauto|discriminate]. Qed.

Lemma ty_index_ok_each s t : ty_index_ok s [IEach] = Some t -> ty_next s = Some t.
Proof. now destruct s. Qed.

Lemma ty_index_ok_eq t idx : ty_index_ok t idx = ty_index t idx.
Proof. revert t. induction idx as [|i r IH]; intros t; cbn; [reflexivity|]. destruct t, i; auto. Qed.

Lemma ty_index_spec_eq t idx : ty_index_spec t idx = ty_index_ok t idx.
Proof. revert t. induction idx as [|i r IH]; intros t; cbn; [reflexivity|]. destruct t, i; auto. Qed.

Lemma mec_app a b : map_each_count (a ++ b) = (map_each_count a + map_each_count b)%nat.
Proof. unfold map_each_count. now rewrite filter_app, app_length. Qed.

Lemma mec_cons i r : map_each_count (i :: r) = ((if index_is_each i then 1 else 0) + map_each_count r)%nat.
Proof. rewrite (mec_app [i] r : map_each_count (i :: r) = _). now destruct i. Qed.

Lemma get_nested_typed idx : forall v t t',
  has_type v t = true -> ty_index_ok t idx = Some t' -> map_each_count idx = 0%nat ->
  get_nested v idx = Some (get_path v idx) /\ (forall x, get_path v idx = Some x -> has_type x t' = true).
Proof.
  induction idx as [|i r IH]; intros v t t' Hv Hi Hn.
  - injection Hi as <-. split; [reflexivity|]. now intros x [= <-].
  - rewrite mec_cons in Hn. destruct (index_is_each i) eqn:Ee; [discriminate|].
    apply ty_index_ok_cons in Hi. destruct Hi as (s & H1 & H2).
    destruct (v_get_typed v t i s Hv H1 Ee) as (Hg & Hx).
    cbn [get_nested get_path]. rewrite Hg. destruct (get1 v i) as [x|]; [now apply (IH x s t'); auto|now split].
Qed.

Lemma step_vals_spec v i :
  step_vals v i = match i with
                  | IEach => elems v
                  | _ => match get1 v i with Some x => [x] | None => [] end
                  end.
Proof. destruct i, v; cbn; try reflexivity; now rewrite nth_N_eq. Qed.

Lemma flatten_step i r v : flatten (i :: r) v = flat_map (flatten r) (step_vals v i).
Proof.
  rewrite step_vals_spec. destruct i; cbn [flatten]; try reflexivity;
    destruct (get1 v _); cbn; now rewrite ?app_nil_r.
Qed.

(* the values an iterator will still yield *)
Definition pending (it : fiter) : list value :=
  match it with
  | FArr (Some (l, n)) => match nth_N l n with Some x => [x] | None => [] end
  | FArr None => []
  | FKey (Some (l, k)) => match assoc_bytes k l with Some x => [x] | None => [] end
  | FKey None => []
  | FEach rest => rest
  end.

Lemma fiter_next_pending it :
  match fiter_next it with
  | (Some x, it') => pending it = x :: pending it'
  | (None, it') => pending it = [] /\ pending it' = []
  end.
Proof.
  destruct it as [[[l n]|]|[[l k]|]|[|x r]]; cbn; auto.
  - destruct (nth_N l n); cbn; auto.
  - destruct (assoc_bytes k l); cbn; auto.
Qed.

(* one level of iteration: the iterator the machine creates yields [step_vals], all typed *)
Lemma step_vals_typed v t i s :
  has_type v t = true -> ty_index_ok t [i] = Some s ->
  Forall (fun x => has_type x s = true) (step_vals v i) /\
  exists it, fiter_new v i = Some it /\ pending it = step_vals v i.
Proof.
  intros Hv Hi. destruct t, i; try discriminate Hi; injection Hi as ->.
  1, 2: destruct (has_type_array _ _ Hv) as (l & -> & Hl).
  3, 4: destruct (has_type_map _ _ Hv) as (l & -> & Hl).
  all: (split; [|eexists; split; reflexivity]); cbn; try exact Hl; rewrite Forall_forall in Hl.
  - destruct (nth_N l n) as [x|] eqn:E; repeat constructor. eauto using nth_N_In.
  - destruct (assoc_bytes k l) as [x|] eqn:E; repeat constructor. eauto using assoc_bytes_In.
Qed.

Lemma flatten_typed idx : forall v t t',
  has_type v t = true -> ty_index_ok t idx = Some t' ->
  Forall (fun x => has_type x t' = true) (flatten idx v).
Proof.
  induction idx as [|i r IH]; intros v t t' Hv Hi.
  - injection Hi as <-. now constructor.
  - apply ty_index_ok_cons in Hi. destruct Hi as (s & H1 & H2). rewrite flatten_step.
    apply Forall_flat_map. eapply Forall_impl; [|exact (proj1 (step_vals_typed v t i s Hv H1))].
    intros x Hx. exact (IH x s t' Hx H2).
Qed.

(* a path ending in a single [*]: the elements of the container before it *)
Lemma flatten_prefix_each p : forall v,
  map_each_count p = 0%nat ->
  flatten (p ++ [IEach]) v = match get_path v p with Some x => elems x | None => [] end.
Proof.
  induction p as [|i p IH]; intros v Hn.
  - cbn [app flatten get_path]. induction (elems v) as [|x l IHl]; cbn; [reflexivity|]. now rewrite IHl.
  - rewrite mec_cons in Hn. destruct (index_is_each i) eqn:Ee; [discriminate|].
    destruct i; try discriminate Ee; cbn [app flatten get_path]; destruct (get1 v _); auto.
Qed.

(* what the machine still yields from a stack: the pending values of the iterator at
   depth k, each flattened along the indexes after the k-th, the top iterator first;
   [stack_cost] counts the iterations that takes *)
Fixpoint stack_out (idx : list index) (stack : list fiter) : list value :=
  match stack with
  | [] => []
  | it :: below => flat_map (flatten (skipn (length stack) idx)) (pending it) ++ stack_out idx below
  end.

Fixpoint stack_cost (idx : list index) (stack : list fiter) : nat :=
  match stack with
  | [] => 0
  | it :: below => mei_cost (skipn (length stack) idx) (pending it) + stack_cost idx below
  end.

(* the iterator at depth k holds values from which the indexes after the k-th lead to type [tf] *)
Fixpoint stack_wf (tf : ty) (idx : list index) (stack : list fiter) : Prop :=
  match stack with
  | [] => True
  | it :: below =>
      (length stack <= length idx)%nat /\
      (exists T, ty_index_ok T (skipn (length stack) idx) = Some tf /\
                 Forall (fun x => has_type x T = true) (pending it)) /\
      stack_wf tf idx below
  end.

Lemma mei_cost_cons r x p :
  mei_cost r (x :: p) = (mei_cost r p + S (match r with [] => O | i :: r' => mei_cost r' (step_vals x i) end))%nat.
Proof. destruct r; cbn; lia. Qed.

Lemma mei_cost_nil r : mei_cost r [] = 1%nat.
Proof. destruct r; reflexivity. Qed.

Lemma mei_run_spec tf idx : forall fuel stack acc,
  stack_wf tf idx stack -> (stack_cost idx stack < fuel)%nat ->
  mei_run fuel idx stack acc = Some (rev acc ++ stack_out idx stack).
Proof.
  induction fuel as [|fuel IH]; intros stack acc Hwf Hfuel; [lia|].
  destruct stack as [|top below]; cbn [mei_run]; [cbn; now rewrite app_nil_r|].
  destruct Hwf as (Hlen & (T & HT & Hpend) & Hbelow).
  cbn [length stack_out stack_cost] in *. set (k := S (length below)) in *.
  rewrite (proj2 (Nat.ltb_ge _ _) Hlen).
  pose proof (fiter_next_pending top) as Hnext. destruct (fiter_next top) as [[x|] top'].
  - (* the top iterator yields x *)
    rewrite Hnext in *. inversion Hpend as [|? ? Hx Hpend']; subst. rewrite mei_cost_cons in Hfuel. cbn [flat_map].
    destruct (Nat.eqb_spec k (length idx)) as [Ek|Ek].
    + (* leaf level: return x *)
      rewrite Ek, skipn_all in *. rewrite IH.
      * cbn [rev stack_out length flatten]. fold k. now rewrite Ek, skipn_all, <- !app_assoc.
      * cbn [stack_wf length]. fold k. rewrite Ek, skipn_all. eauto.
      * cbn [stack_cost length]. fold k. rewrite Ek, skipn_all. lia.
    + (* inner level: push an iterator for x *)
      destruct (nth_error idx k) as [i|] eqn:Ei; [|apply nth_error_None in Ei; lia].
      pose proof (skipn_nth _ _ _ Ei) as Hskip. rewrite Hskip in *.
      destruct (ty_index_ok_cons _ _ _ _ HT) as (s & Hs & Hrest).
      destruct (step_vals_typed x T i s Hx Hs) as (Hall & it & -> & Hit). rewrite IH.
      * cbn [stack_out length]. fold k. now rewrite Hit, Hskip, flatten_step, <- !app_assoc.
      * cbn [stack_wf length]. fold k. rewrite Hit, Hskip. repeat split; eauto; lia.
      * cbn [stack_cost length]. fold k. rewrite Hit, Hskip. lia.
  - (* the top iterator is exhausted: pop *)
    destruct Hnext as (Hp & _). rewrite Hp, mei_cost_nil in *. apply IH; [exact Hbelow|lia].
Qed.

Theorem mei_collect_is_flatten idx v t t' :
  idx <> [] -> has_type v t = true -> ty_index_ok t idx = Some t' ->
  mei_collect idx v = Some (flatten idx v).
Proof.
  intros Hne Hv Hi. destruct idx as [|i r]; [congruence|]. unfold mei_collect.
  apply ty_index_ok_cons in Hi. destruct Hi as (s & Hs & Hr).
  destruct (step_vals_typed v t i s Hv Hs) as (Hall & it & -> & Hit).
  rewrite (mei_run_spec t' (i :: r)); cbn [rev app stack_out stack_wf stack_cost length skipn]; rewrite Hit.
  - now rewrite app_nil_r, flatten_step.
  - repeat split; eauto. cbn; lia.
  - lia.
Qed.
