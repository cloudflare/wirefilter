(* Proofs for C12: the visitor model (Sem/Visitor.v) computes exactly the
   occurrence relations of Spec/C12.v, for every AST (mutual induction, no size
   bound), and name lookup errs exactly on the names that are not fields. *)
From Coq Require Import List Bool Arith Lia.
From WF Require Import Base.Bytes Lang.Types Lang.Ast Sem.Compile Parse.Lex Parse.Parser Sem.Visitor Spec.C12 Proofs.ListFacts Proofs.ByteKeys.
Import ListNotations.

Lemma sub_trans a b c : sub a b -> sub b c -> sub a c.
Proof. intros Hab Hbc. induction Hbc as [|b c p _ IH Hc]; [exact Hab|exact (sub_step _ _ _ (IH Hab) Hc)]. Qed.

Lemma nodes_ls_flat l : nodes_ls l = flat_map nodes_l (lexprs_to_list l).
Proof. induction l as [|e r IH]; cbn; [reflexivity|now rewrite IH]. Qed.

Lemma nodes_as_flat a : nodes_as a = flat_map nodes_a (args_to_list a).
Proof. induction a as [|x r IH]; cbn; [reflexivity|now rewrite IH]. Qed.

Lemma nodes_unfold p m : In m (nodes p) <-> m = p \/ exists c, child c p /\ In m (nodes c).
Proof.
  (* after p come the nodes of its one component, or of its operands / arguments one after the other ([flat_map]) *)
  split.
  - destruct p as [[]|[]|[]]; cbn [nodes nodes_l nodes_i nodes_a]; rewrite ?nodes_ls_flat, ?nodes_as_flat;
      (intros [<-|H]; [now left|right]); try apply in_flat_map in H as (x & Hx & H);
      try (eexists; split; [constructor; eassumption|exact H]); destruct H.
  - intros [->|(c & Hc & H)].
    + destruct p as [[]|[]|[]]; now left.
    + destruct Hc; cbn [nodes nodes_l nodes_i nodes_a]; rewrite ?nodes_ls_flat, ?nodes_as_flat; right;
        try apply in_flat_map; eauto.
Qed.

Lemma flat_map_length_in {A B} (g : A -> list B) x l : In x l -> (length (g x) <= length (flat_map g l))%nat.
Proof.
  induction l as [|y l IH]; [intros []|]. cbn [flat_map]. rewrite app_length.
  intros [<-|H]; [apply Nat.le_add_r|]. etransitivity; [exact (IH H)|apply Nat.le_add_l].
Qed.

Lemma child_smaller c p : child c p -> (length (nodes c) < length (nodes p))%nat.
Proof.
  destruct 1; cbn [nodes nodes_l nodes_i nodes_a length]; rewrite ?nodes_ls_flat, ?nodes_as_flat;
    apply Nat.lt_succ_r; auto using flat_map_length_in.
Qed.

Lemma nodes_sound n : forall m, In m (nodes n) -> sub m n.
Proof.
  induction n as [n IH] using (induction_ltof1 _ (fun p => length (nodes p))). intros m Hm.
  apply nodes_unfold in Hm as [->|(c & Hc & Hm)]; [apply sub_refl|].
  eapply sub_step; [apply (IH c (child_smaller c n Hc)), Hm|exact Hc].
Qed.

Lemma nodes_complete n m : sub m n -> In m (nodes n).
Proof.
  intros H. induction H as [n|m c p _ IH Hc]; apply nodes_unfold; [now left|right; eauto].
Qed.

Theorem nodes_iff_sub n m : In m (nodes n) <-> sub m n.
Proof. split; [apply nodes_sound|apply nodes_complete]. Qed.

Theorem occursb_iff f n : occursb f n = true <-> occurs f n.
Proof.
  unfold occursb, occurs. rewrite existsb_exists. split.
  - intros ([e|[g idx|fn a idx]|a] & Hin & Hm); try discriminate Hm.
    apply Nat.eqb_eq in Hm as ->. exists idx. now apply nodes_sound.
  - intros (idx & Hs). exists (NI (IField f idx)). split; [now apply nodes_complete|apply Nat.eqb_refl].
Qed.

Theorem occurs_in_list_lhsb_iff f n : occurs_in_list_lhsb f n = true <-> occurs_in_list_lhs f n.
Proof.
  unfold occurs_in_list_lhsb, occurs_in_list_lhs. rewrite existsb_exists. split.
  - intros ([[| lhs [] | | | |]|e|a] & Hin & Hm); try discriminate Hm.
    exists lhs, li, name. split; [now apply nodes_sound|now apply occursb_iff].
  - intros (lhs & li & name & Hs & Ho). exists (NL (EComparison lhs (CInList li name))).
    split; [now apply nodes_complete|now apply occursb_iff].
Qed.

Definition hit (f : nat) (l : list node) : bool := existsb (is_field_node f) l.

Lemma hit_app f a b : hit f (a ++ b) = hit f a || hit f b.
Proof. apply existsb_app. Qed.

(* UsesVisitor: the flag is sticky, so the early exit changes nothing *)
Lemma uv_mut f :
  (forall e u, uv_lexpr f u e = u || hit f (nodes_l e)) /\
  (forall l u, uv_lexprs f u l = u || hit f (nodes_ls l)) /\
  (forall e u, uv_iexpr f u e = u || hit f (nodes_i e)) /\
  (forall a u, uv_args f u a = u || hit f (nodes_as a)) /\
  (forall a u, uv_arg f u a = u || hit f (nodes_a a)).
Proof.
  (* a node other than a field: nothing is visited when the flag is up, else the walk goes on in its one component *)
  apply ast_mutind; try (intros; destruct u; [reflexivity|match goal with IH : _ |- _ => apply IH end]).
  - intros u. symmetry. apply orb_false_r.
  - intros e IHe r IHr u. cbn [uv_lexprs nodes_ls]. now rewrite IHr, IHe, hit_app, orb_assoc.
  - intros g idx [|]; [reflexivity|]. cbn. now destruct (Nat.eqb f g).
  - intros u. symmetry. apply orb_false_r.
  - intros x IHx r IHr u. cbn [uv_args nodes_as]. now rewrite IHr, IHx, hit_app, orb_assoc.
  - intros r [|]; reflexivity.
Qed.

Lemma uv_lexpr_occursb f e : uv_lexpr f false e = occursb f (NL e).
Proof. apply uv_mut. Qed.
Lemma uv_iexpr_occursb f e : uv_iexpr f false e = occursb f (NI e).
Proof. apply uv_mut. Qed.
Lemma uv_arg_occursb f a : uv_arg f false a = occursb f (NA a).
Proof. apply uv_mut. Qed.

Lemma uv_lexpr_flag f e u : uv_lexpr f u e = u || uv_lexpr f false e.
Proof. rewrite uv_lexpr_occursb. apply uv_mut. Qed.

Definition lhit (f : nat) (l : list node) : bool := existsb (is_list_cmp_with f) l.

Lemma lhit_app f a b : lhit f (a ++ b) = lhit f a || lhit f b.
Proof. apply existsb_app. Qed.

Lemma ulv_mut f :
  (forall e u, ulv_lexpr f u e = u || lhit f (nodes_l e)) /\
  (forall l u, ulv_lexprs f u l = u || lhit f (nodes_ls l)) /\
  (forall e u, ulv_iexpr f u e = u || lhit f (nodes_i e)) /\
  (forall a u, ulv_args f u a = u || lhit f (nodes_as a)) /\
  (forall a u, ulv_arg f u a = u || lhit f (nodes_a a)).
Proof.
  apply ast_mutind; try (intros; destruct u; [reflexivity|match goal with IH : _ |- _ => apply IH end]).
  - (* a comparison with a list tests its left-hand side with a UsesVisitor of its own *)
    intros lhs IH op [|]; [reflexivity|]. destruct op; try exact (IH false).
    cbn -[occursb]. unfold uv_comparison. rewrite uv_iexpr_occursb.
    destruct (occursb f (NI lhs)); [reflexivity|exact (IH false)].
  - intros u. symmetry. apply orb_false_r.
  - intros e IHe r IHr u. cbn [ulv_lexprs nodes_ls]. now rewrite IHr, IHe, lhit_app, orb_assoc.
  - intros g idx [|]; reflexivity.
  - intros u. symmetry. apply orb_false_r.
  - intros x IHx r IHr u. cbn [ulv_args nodes_as]. now rewrite IHr, IHx, lhit_app, orb_assoc.
  - intros r [|]; reflexivity.
Qed.

Lemma ulv_lexpr_spec f e : ulv_lexpr f false e = occurs_in_list_lhsb f (NL e).
Proof. apply ulv_mut. Qed.
Lemma ulv_iexpr_spec f e : ulv_iexpr f false e = occurs_in_list_lhsb f (NI e).
Proof. apply ulv_mut. Qed.

Theorem uses_filter_spec f e : uv_lexpr f false e = true <-> occurs f (NL e).
Proof. rewrite uv_lexpr_occursb. apply occursb_iff. Qed.

Lemma find_field_find name l : forall k,
  find_field name l k =
  option_map fst (find (fun p => bytes_eqb (fd_name (snd p)) name) (List.combine (seq k (List.length l)) l)).
Proof.
  induction l as [|fd r IH]; intros k; cbn [find_field List.length seq List.combine find snd]; [reflexivity|].
  rewrite (bytes_eqb_sym name). destruct (bytes_eqb (fd_name fd) name); [reflexivity|apply IH].
Qed.

Theorem get_field_is_field_index sch name : get_field sch name = field_index sch name.
Proof.
  unfold get_field, scheme_get, field_index. rewrite find_field_find.
  destruct (find _ _) as [[i fd]|]; [reflexivity|]. now destruct (find_fn name (sc_functions sch) 0).
Qed.

Lemma find_field_spec name l : forall k,
  match find_field name l k with
  | Some i => exists j fd, i = (k + j)%nat /\ nth_error l j = Some fd /\ fd_name fd = name
  | None => forall fd, In fd l -> fd_name fd <> name
  end.
Proof.
  induction l as [|fd r IH]; intros k; cbn [find_field]; [intros fd []|].
  destruct (bytes_eqb name (fd_name fd)) eqn:E.
  - apply bytes_eqb_iff in E. exists 0%nat, fd. auto.
  - specialize (IH (S k)). destruct (find_field name r (S k)) as [i|].
    + destruct IH as (j & fd' & -> & H). exists (S j), fd'. split; [lia|exact H].
    + intros fd' [<-|H] Hn; [|exact (IH fd' H Hn)]. apply eq_sym, bytes_eqb_iff in Hn. congruence.
Qed.

(* a hit is a field of that name; a miss means no field has the name (function names included) *)
Theorem get_field_some sch name i : get_field sch name = Some i -> names_field sch name i.
Proof.
  unfold get_field, scheme_get. pose proof (find_field_spec name (sc_fields sch) 0) as H.
  destruct (find_field name (sc_fields sch) 0) as [j|].
  - intros [= <-]. destruct H as (i & fd & -> & H). now exists fd.
  - now destruct (find_fn name (sc_functions sch) 0).
Qed.

Theorem get_field_none sch name : get_field sch name = None <-> ~ is_field_name sch name.
Proof.
  split.
  - unfold get_field, scheme_get. pose proof (find_field_spec name (sc_fields sch) 0) as H.
    destruct (find_field name (sc_fields sch) 0); [discriminate|].
    intros _ (i & fd & Hnth & Hname). exact (H fd (nth_error_In _ _ Hnth) Hname).
  - intros Hn. destruct (get_field sch name) as [i|] eqn:E; [|reflexivity].
    destruct Hn. exists i. now apply get_field_some.
Qed.

Theorem get_field_complete sch name i :
  names_unique sch -> names_field sch name i -> get_field sch name = Some i.
Proof.
  intros Hu (fd & Hnth & Hname). destruct (get_field sch name) as [j|] eqn:E.
  - apply get_field_some in E as (fd' & Hnth' & Hname'). f_equal.
    eapply (NoDup_map_nth fd_name); eauto. congruence.
  - apply get_field_none in E. destruct E. now exists i, fd.
Qed.

Lemma by_name_ext sch name (g h : nat -> bool) :
  (forall i, g i = h i) -> option_map g (get_field sch name) = option_map h (field_index sch name).
Proof.
  intros H. rewrite get_field_is_field_index. destruct (field_index sch name); cbn; [now rewrite H|reflexivity].
Qed.

Lemma answers_of sch name (P : nat -> Prop) (g : nat -> bool) :
  (forall i, g i = true <-> P i) -> answers sch name P (option_map g (get_field sch name)).
Proof.
  intros Hg. destruct (get_field sch name) as [i|] eqn:E; cbn.
  - exists i. split; [now apply get_field_some|apply Hg].
  - now apply get_field_none.
Qed.

(* Every identifier node the parser model builds comes from [lex_ident_name] on
   the text at that point, looked up in the scheme. *)
Theorem lex_index_expr_ident sch st fuel d input e rest :
  lex_index_expr sch st fuel d input = LOk e rest ->
  exists name after,
    lex_ident_name input = LOk name after /\
    match e with
    | IField i _ => scheme_get sch name = Some (IdField i)
    | ICall i _ _ => scheme_get sch name = Some (IdFn i)
    end.
Proof.
  destruct fuel as [|f]; [discriminate|]. cbn [lex_index_expr].
  destruct (lex_ident_name input) as [name after|k a n| |]; try discriminate.
  intros H. exists name, after. split; [reflexivity|].
  destruct (scheme_get sch name) as [[i|i]|]; [| |discriminate].
  - destruct (field_ty sch i) as [t|]; [|discriminate]. unfold lmap, lbind in H.
    destruct (lex_indexes _ _ _ _ _ _) as [idx0 r0|k0 a0 n0| |]; try discriminate. injection H as <- _. reflexivity.
  - destruct (increase st d (skip_space after)) as [d' r1|k1 a1 n1| |]; try discriminate.
    destruct (lex_call _ _ _ _ _ _) as [al r2|k2 a2 n2| |]; try discriminate.
    destruct (ty_call sch i al) as [t|]; [|discriminate]. unfold lmap, lbind in H.
    destruct (lex_indexes _ _ _ _ _ _) as [idx0 r0|k0 a0 n0| |]; try discriminate. injection H as <- _. reflexivity.
Qed.

(* ... hence the identifier text is the name of the field in the node *)
Theorem lex_index_expr_field_name sch st fuel d input i idx rest :
  lex_index_expr sch st fuel d input = LOk (IField i idx) rest ->
  exists name after, lex_ident_name input = LOk name after /\ names_field sch name i.
Proof.
  intros H. destruct (lex_index_expr_ident _ _ _ _ _ _ _ H) as (name & after & Hl & Hg).
  exists name, after. split; [exact Hl|]. apply get_field_some. unfold get_field. now rewrite Hg.
Qed.
