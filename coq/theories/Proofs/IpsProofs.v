(* Every address the parser model puts into an AST is a 32 / 128 bit value
   ([ips_ok] of Spec/C07.v): the premise of C07's text-injectivity theorem holds
   for whatever parse_filter accepts. *)
From Coq Require Import List ZArith Lia.
From WF Require Import Base.Bytes Lang.Types Lang.Ast Spec.C07 Parse.Lex Parse.Parser
     Proofs.LexBase Proofs.LexIpProofs Proofs.LexFacts Proofs.ParserProofs Proofs.ParserInd.
Import ListNotations.
Local Notation length := List.length (only parsing).
Local Open Scope Z_scope.

(* a branch that answers None where Some is asked: the match on the constructor is reduced first *)
Ltac dsc := (cbv beta iota; discriminate).

Lemma hexval_lt b : (Z.of_N (hexval b) < 16 -> True). Proof. auto. Qed.

(* a decimal number under some guard c, checked against 256: dec_octet and u8_dec *)
Lemma digits_u8 (c : bool) s v :
  (if c then match digits_val 10 s 0 with
             | Some v0 => if v0 <? 256 then Some v0 else None
             | None => None
             end
   else None) = Some v -> 0 <= v < 256.
Proof.
  destruct c; [|dsc]. destruct (digits_val 10 s 0) as [v0|] eqn:E; [|dsc].
  destruct (Z.ltb_spec v0 256); [|dsc]. intros [= <-].
  pose proof (digits_val_bound 10 ltac:(lia) s 0 v0 ltac:(lia) E). lia.
Qed.

Lemma dec_octet_range s v : dec_octet s = Some v -> 0 <= v < 256.
Proof.
  destruct s as [|d [|d2 r]]; [dsc| |].
  - rewrite dec_octet_single. destruct (is_digit d) eqn:E; [|dsc]. intros [= <-]. unfold is_digit in E. lia.
  - rewrite dec_octet_multi. destruct (d =? 48)%N; [dsc|]. apply digits_u8.
Qed.

Lemma parse_v4_range s v : parse_v4 s = Some v -> 0 <= v < 2 ^ 32.
Proof.
  unfold parse_v4. destruct (split_on 46 s []) as [|a [|b [|c [|d [|? ?]]]]]; try dsc.
  destruct (dec_octet a) as [a'|] eqn:Ea; [|dsc]. destruct (dec_octet b) as [b'|] eqn:Eb; [|dsc].
  destruct (dec_octet c) as [c'|] eqn:Ec; [|dsc]. destruct (dec_octet d) as [d'|] eqn:Ed; [|dsc].
  intros [= <-]. apply dec_octet_range in Ea, Eb, Ec, Ed. change (2 ^ 32) with 4294967296. lia.
Qed.

Lemma hex_group_range s g : hex_group s = Some g -> 0 <= g < 65536.
Proof.
  unfold hex_group. destruct s as [|b r]; [dsc|].
  destruct (Nat.leb_spec (length (b :: r)) 4); cbn [andb]; [|dsc].
  destruct (forallb is_hexdigit (b :: r)); [|dsc]. intros E.
  pose proof (digits_val_bound 16 ltac:(lia) _ 0 g ltac:(lia) E) as B.
  assert (16 ^ Z.of_nat (length (b :: r)) <= 16 ^ 4) by (apply Z.pow_le_mono_r; lia).
  change (16 ^ 4) with 65536 in *. lia.
Qed.

Definition below (B : Z) (l : list Z) : Prop := Forall (fun v => 0 <= v < B) l.

Lemma horner_range B n l : 0 < B -> below B l -> length l = n ->
  0 <= fold_left (fun a v => a * B + v) l 0 < B ^ Z.of_nat n.
Proof.
  intros HB Hl <-.
  enough (G : forall acc k, 0 <= acc < B ^ Z.of_nat k ->
                0 <= fold_left (fun a v => a * B + v) l acc < B ^ Z.of_nat (k + length l))
    by (apply (G 0 0%nat); cbn; lia).
  induction Hl as [|v l Hv _ IH]; intros acc k Ha; cbn [fold_left length].
  - now rewrite Nat.add_0_r.
  - replace (k + S (length l))%nat with (S k + length l)%nat by lia. apply IH.
    rewrite Nat2Z.inj_succ, Z.pow_succ_r by lia. nia.
Qed.

Lemma below_pad B l n : 0 < B -> below B l -> below B (l ++ repeat 0 n).
Proof.
  intros HB Hl. apply Forall_app. split; [exact Hl|]. apply Forall_forall. intros x Hx.
  apply repeat_spec in Hx. subst. lia.
Qed.

Lemma groups_val_fold gs : forall acc, groups_val gs acc = fold_left (fun a g => a * 65536 + g) gs acc.
Proof. induction gs as [|g gs IH]; cbn; auto. Qed.

Lemma parse_groups_range : forall parts allow gs, parse_groups parts allow = Some gs -> below 65536 gs.
Proof.
  induction parts as [|p r IH]; intros allow gs H; cbn [parse_groups] in H.
  - injection H as <-. constructor.
  - destruct r as [|p2 r'].
    + destruct (hex_group p) as [g|] eqn:Eg.
      * injection H as <-. constructor; [now apply hex_group_range in Eg|constructor].
      * destruct allow; [|discriminate H]. destruct (parse_v4 p) as [v|] eqn:Ev; [|discriminate H].
        injection H as <-. apply parse_v4_range in Ev. change (2 ^ 32) with (65536 * 65536) in Ev.
        constructor; [|constructor; [|constructor]].
        -- split; [apply Z.div_pos; lia|apply Z.div_lt_upper_bound; lia].
        -- apply Z.mod_pos_bound. lia.
    + destruct (hex_group p) as [g|] eqn:Eg; [|discriminate H].
      destruct (parse_groups (p2 :: r') allow) as [gs'|] eqn:Er; [|discriminate H]. injection H as <-.
      constructor; [now apply hex_group_range in Eg|eapply IH; eauto].
Qed.

Lemma parse_v6_range s v : parse_v6 s = Some v -> 0 <= v < 2 ^ 128.
Proof.
  change (2 ^ 128) with (65536 ^ Z.of_nat 8). unfold parse_v6. destruct (find_dcolon s 0) as [i|].
  - destruct (parse_groups (parts_of (firstn i s)) false) as [hs|] eqn:Eh; [|dsc].
    destruct (parse_groups (parts_of (skipn (i + 2) s)) true) as [ts|] eqn:Et; [|dsc].
    destruct (Nat.leb_spec (length hs + length ts) 7) as [Hn|]; [|dsc].
    apply parse_groups_range in Eh, Et.
    (* injection would unfold the subtraction *)
    enough (B : forall n, n = (8 - (length hs + length ts))%nat ->
                  0 <= groups_val (hs ++ repeat 0 n ++ ts) 0 < 65536 ^ Z.of_nat 8)
      by (intros [= <-]; now apply B).
    intros n En. rewrite groups_val_fold, app_assoc.
    apply horner_range; [lia|apply Forall_app; split; [apply below_pad; [lia|exact Eh]|exact Et]|].
    rewrite !app_length, repeat_length. lia.
  - destruct (parse_groups (parts_of s) true) as [gs|] eqn:Eg; [|dsc].
    destruct (Nat.eqb_spec (length gs) 8) as [H8|]; [|dsc]. intros [= <-].
    rewrite groups_val_fold. apply horner_range; [lia|exact (parse_groups_range _ _ _ Eg)|exact H8].
Qed.

Lemma parse_addr_ok s a : parse_addr s = Some a -> ip_ok a.
Proof.
  unfold parse_addr. destruct (parse_v4 s) as [v|] eqn:E4.
  - intros [= <-]. exact (parse_v4_range _ _ E4).
  - destruct (parse_v6 s) as [v|] eqn:E6; [|dsc]. intros [= <-]. exact (parse_v6_range _ _ E6).
Qed.

Lemma lex_ip_ok i a r : lex_ip i = LOk a r -> ip_ok a.
Proof.
  unfold lex_ip. intros H. apply lbind_ok in H. destruct H as (c & rest0 & _ & H).
  destruct (parse_addr c) eqn:E; [|discriminate H]. injection H as <- _. eapply parse_addr_ok; eauto.
Qed.

Lemma u8_dec_range s v : u8_dec s = Some v -> 0 <= v < 256.
Proof. unfold u8_dec. destruct s as [|b r]; [dsc|]. apply digits_u8. Qed.

Lemma option_map_all_forall {A B} (f : A -> option B) (P : B -> Prop) :
  (forall x y, f x = Some y -> P y) -> forall l ys, option_map_all f l = Some ys -> Forall P ys /\ length ys = length l.
Proof.
  intros Hf. induction l as [|x l IH]; intros ys H; cbn [option_map_all] in H.
  - injection H as <-. split; [constructor|reflexivity].
  - destruct (f x) as [y|] eqn:E; [|discriminate H]. destruct (option_map_all f l) as [ys'|]; [|discriminate H].
    injection H as <-. destruct (IH _ eq_refl) as [H1 H2]. split; [constructor; eauto|cbn; lia].
Qed.

Lemma parse_short_v4_range s v : parse_short_v4 s = Some v -> 0 <= v < 2 ^ 32.
Proof.
  change (2 ^ 32) with (256 ^ Z.of_nat 4).
  unfold parse_short_v4. destruct (Nat.ltb_spec 4 (length (split_on 46 s []))) as [|Hle]; [dsc|].
  destruct (option_map_all u8_dec (split_on 46 s [])) as [octs|] eqn:E; [|dsc].
  destruct (option_map_all_forall u8_dec _ u8_dec_range _ _ E) as [Ho Hl].
  enough (B : forall n, n = (4 - length octs)%nat ->
                0 <= fold_left (fun acc v => acc * 256 + v) (octs ++ repeat 0 n) 0 < 256 ^ Z.of_nat 4)
    by (intros [= <-]; now apply B).
  intros n En. apply horner_range; [lia|apply below_pad; [lia|exact Ho]|]. rewrite app_length, repeat_length. lia.
Qed.

Lemma parse_loose_ip_ok s a : parse_loose_ip s = Some a -> ip_ok a.
Proof.
  unfold parse_loose_ip. destruct (parse_addr s) as [x|] eqn:E.
  - intros [= <-]. exact (parse_addr_ok _ _ E).
  - destruct (parse_short_v4 s) as [v|] eqn:E2; [|dsc]. intros [= <-]. exact (parse_short_v4_range _ _ E2).
Qed.

Lemma parse_cidr_ok c it : parse_cidr c = inl it -> ip_item_ok it.
Proof.
  unfold parse_cidr. destruct (rfind_byte 47 c 0 None) as [i|].
  - destruct (parse_loose_ip (firstn i c)) as [a|] eqn:Ea; [|dsc]. apply parse_loose_ip_ok in Ea.
    destruct (parse_prefix_len (skipn (S i) c)) as [n|]; [|dsc].
    destruct a as [v|v].
    + destruct (32 <? n); [dsc|]. destruct (v mod 2 ^ (32 - n) =? 0); [|dsc]. intros [= <-]. exact Ea.
    + destruct (128 <? n); [dsc|]. destruct (v mod 2 ^ (128 - n) =? 0); [|dsc]. intros [= <-]. exact Ea.
  - destruct (parse_loose_ip c) as [[v|v]|] eqn:Ea; [| |dsc]; apply parse_loose_ip_ok in Ea;
      intros [= <-]; exact Ea.
Qed.

Lemma lex_ip_range_ok i it r : lex_ip_range i = LOk it r -> ip_item_ok it.
Proof.
  unfold lex_ip_range. intros H. apply lbind_ok in H. destruct H as (c & rest0 & _ & H). revert H.
  destruct (find_sub [46%N; 46%N] c 0) as [j|].
  - destruct (parse_addr (firstn j c)) as [first|] eqn:E1; [|dsc].
    destruct (parse_addr (skipn (j + 2) c)) as [last|] eqn:E2; [|dsc].
    apply parse_addr_ok in E1, E2.
    destruct first as [a|a], last as [b|b]; try dsc.
    + destruct (a <=? b); [|dsc]. intros [= <- _]. split; assumption.
    + destruct (a <=? b); [|dsc]. intros [= <- _]. split; assumption.
  - destruct (parse_cidr c) as [x|e] eqn:Ec.
    + intros [= <- _]. now apply parse_cidr_ok in Ec.
    + destruct e; dsc.
Qed.

Lemma lex_rhs_ok t i x r : lex_rhs t i = LOk x r -> rhs_ok x.
Proof.
  unfold lex_rhs. destruct t; try dsc; intros H; apply lmap_ok in H; destruct H as (a & H & ->); cbn [rhs_ok]; auto.
  eapply lex_ip_ok; eauto.
Qed.

Lemma lex_ip_range_items i : lpost i ip_item_ok (lex_ip_range i).
Proof.
  pose proof (lf_ip_range lexers_ok i) as H. pose proof (lex_ip_range_ok i) as K.
  destruct (lex_ip_range i); [split; [eapply K; reflexivity|apply H]|exact H..].
Qed.

Lemma brace_ip_ok i l r : lex_brace_list lex_ip_range i = LOk l r -> Forall ip_item_ok l.
Proof.
  intros H. pose proof (brace_list_post ip_item_ok lex_ip_range i i lex_ip_range_items (suffix_refl i)) as B.
  rewrite H in B. exact (proj1 B).
Qed.

Lemma ips_ok_list_app l e : ips_ok_list (lexprs_of_list l) -> ips_ok e -> ips_ok_list (lexprs_of_list (l ++ [e])).
Proof. induction l as [|x l IH]; cbn [app lexprs_of_list ips_ok_list]; intros H He; [auto|]. destruct H. auto. Qed.

Lemma ips_ok_combine lhs op rhs : ips_ok lhs -> ips_ok rhs -> ips_ok (combine lhs op rhs).
Proof.
  intros Hl Hr. destruct (combine_cases lhs op rhs) as [->|(o & items & -> & ->)]; [cbn; auto|].
  cbn [ips_ok] in Hl |- *. apply ips_ok_list_app; [|exact Hr]. now rewrite TypingProofs.lexprs_of_to_list.
Qed.

Lemma ips_ok_args_of_list l : Forall ips_ok_arg l -> ips_ok_args (args_of_list l).
Proof. induction 1; cbn [args_of_list ips_ok_args]; auto. Qed.

Lemma ips_closed sch w : closed sch w ips_ok ips_ok_i ips_ok_arg.
Proof.
  constructor; cbn; auto.
  - intros lhs op Hl Ho. split; [exact Hl|]. destruct op; cbn; auto.
    + destruct Ho as (t & i & rest & H). exact (lex_rhs_ok _ _ _ _ H).
    + destruct Ho as (i & r & H). exact (brace_ip_ok _ _ _ H).
  - intros lhs op rhs. apply ips_ok_combine.
  - intros fn l idx. apply ips_ok_args_of_list.
  - intros r (t & i & rest & H). exact (lex_rhs_ok _ _ _ _ H).
Qed.

Lemma ips_parsed sch st w f : parsed sch st w ips_ok ips_ok_i ips_ok_arg f.
Proof. apply parser_ind, ips_closed. Qed.

Section Ips.
Variable sch : scheme.
Variable st : settings.

Record IPS (f : nat) : Prop := {
  ips_logical : forall d i e r, lex_logical sch st f d i = LOk e r -> ips_ok e;
  ips_more : forall d lhs minp la e r, ips_ok lhs -> lex_more sch st f d lhs minp la = LOk e r -> ips_ok e;
  ips_inner : forall d rhs rest op p r, ips_ok rhs -> lex_inner sch st f d rhs rest op = LOk p r -> ips_ok (fst p);
  ips_simple : forall d i e r, lex_simple sch st f d i = LOk e r -> ips_ok e;
  ips_index : forall d i e r, lex_index_expr sch st f d i = LOk e r -> ips_ok_i e;
  ips_call : forall d i fn a r, lex_call sch st f d i fn = LOk a r -> ips_ok_args a;
  ips_call_args : forall d i def acc l r, Forall ips_ok_arg acc ->
      lex_call_args sch st f d i def acc = LOk l r -> Forall ips_ok_arg l;
  ips_arg : forall d i a r, lex_arg sch st f d i = LOk a r -> ips_ok_arg a;
}.

Theorem parser_ips f : IPS f.
Proof.
  constructor.
  - intros d i e r. exact (spost_ok (p_logical (ips_parsed sch st i f) d i (suffix_refl i))).
  - intros d lhs minp la e r Hl. exact (spost_ok (p_more (ips_parsed sch st _ f) d lhs minp la Hl (suffix_refl _))).
  - intros d rhs rest op p r Hr H.
    exact (proj1 (spost_ok (p_inner (ips_parsed sch st rest f) d rhs rest op Hr (suffix_refl rest)) H)).
  - intros d i e r. exact (spost_ok (p_simple (ips_parsed sch st i f) d i (suffix_refl i))).
  - intros d i e r. exact (spost_ok (p_index (ips_parsed sch st i f) d i (suffix_refl i))).
  - intros d i fn a r H. exact (spost_ok (p_call (ips_parsed sch st i f) d i fn (suffix_refl i)) H []).
  - intros d i def acc l r Hacc. exact (spost_ok (p_call_args (ips_parsed sch st i f) d i def acc Hacc (suffix_refl i))).
  - intros d i a r. exact (spost_ok (p_arg (ips_parsed sch st i f) d i (suffix_refl i))).
Qed.

End Ips.

Theorem parse_filter_ips_ok sch st text e r : parse_filter sch st text = LOk e r -> ips_ok e.
Proof. exact (parse_filter_ind sch st text _ _ _ e r (ips_closed sch _)). Qed.
