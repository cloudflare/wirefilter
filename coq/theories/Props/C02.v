(* C02 — Indexing, map-each, bool-array logic and any/all follow the reference
   semantics.  Property theorems only. *)
From Coq Require Import List ZArith.
From WF Require Import Lang.Types Lang.Ast Lang.Context Sem.Compile Spec.Denote Spec.Typing
     Proofs.ValueProofs Proofs.IndexProofs Proofs.ExecProofs Proofs.CallProofs Proofs.FullProofs
     Parse.Lex Parse.Parser Spec.Grammar Props.C01.
Import ListNotations.

(* For every scheme, every well-typed filter (documented typing rules: index
   kinds matching the containers, [*] anywhere in a path, element-wise
   not/and/or/xor on boolean arrays, any/all, calls), every well-formed context
   and every type-correct function library: compile + execute returns exactly
   the denotation (row-major flattening, absent => no value / empty result,
   truncation to the shortest operand, any/all), and never panics. *)
Theorem C02_exec_is_denote : forall (sch : scheme) (e : lexpr) (c : ctx),
  wt_filter sch e = true -> ctx_ok sch c = true -> fns_ok sch ->
  exists b, run_filter sch e c = Some b /\ denote_filter sch e c = Some b.
Proof. exact filter_exec_is_denote. Qed.

(* Text level: every text of the surface grammar (Spec/Grammar.v: left-hand sides with any sequence of [n],
   ["key"], [*] accesses, comparisons over them, bare boolean arrays, element-wise not / and / xor / or on
   boolean-array expressions, any( ) / all( ) over a parenthesised or negated chain, one iterating
   comparison or a bare Array(Bool) value) parses to the AST the grammar assigns to it, whatever the layout
   and the spellings, and executing that AST gives its denotation. *)
Theorem C02_text_level : forall sch st text e c,
  GFilter sch st text e -> ctx_ok sch c = true -> fns_ok sch ->
  parse_filter sch st text = LOk e [] /\
  exists b, run_filter sch e c = Some b /\ denote_filter sch e c = Some b.
Proof. exact C01_text_level. Qed.

(* The explicit-stack MapEachIterator yields exactly the recursive row-major
   flattening, for every well-typed value and path (any depth and width). *)
Theorem C02_map_each_iter_is_flatten : forall idx v t t',
  idx <> [] -> has_type v t = true -> ty_index_ok t idx = Some t' ->
  mei_collect idx v = Some (flatten idx v).
Proof. exact mei_collect_is_flatten. Qed.

(* The three compilation strategies (no [*] / one trailing [*] / iterator)
   compute [select]: one value, or the flattened list of selected values. *)
Theorem C02_strategies : forall c (src : ctx -> M (option value)) base t0 idx t default comp holds,
  src c = Some base ->
  (forall v, base = Some v -> has_type v t0 = true) ->
  ty_index_ok t0 idx = Some t ->
  (forall x, has_type x t = true -> exists b, comp x c = Some b /\ holds x = Some b) ->
  match compile_with src idx default comp with
  | COne f =>
      map_each_count idx = 0%nat /\
      exists b, f c = Some b /\
                match select base idx with
                | SAbsent => b = default
                | SOne x => holds x = Some b
                | SMany _ => False
                end
  | CVec f =>
      map_each_count idx <> 0%nat /\
      exists l xs, f c = Some l /\ select base idx = SMany xs /\ all_some (map holds xs) = Some l
  end.
Proof. exact compile_with_spec. Qed.

(* The in-place zip/truncate loops are element-wise with truncation to the
   shortest operand, for any number of operands. *)
Theorem C02_vec_logic : forall c op fs ls,
  evals_vec c fs ls ->
  forall out, run_vec op out fs c = Some (fold_left (map2_trunc (lop_spec op)) ls out).
Proof. exact run_vec_spec. Qed.

(* Non-vacuity: `any(g[*][*] and not m[*][1] > 3)` over a ragged context *)
Definition ex_scheme : scheme :=
  {| sc_fields := [ {| fd_name := [103]%N; fd_ty := TArray (TArray TBool); fd_optional := true |};
                    {| fd_name := [109]%N; fd_ty := TMap (TArray TInt); fd_optional := true |} ];
     sc_functions := []; sc_lists := []; sc_nil_ne := true |}.
Definition ex_filter : lexpr :=
  EQuantLogical QAny
    (ECombining LAnd (LCons (EComparison (IField 0 [IEach; IEach]) CIsTrue)
                     (LCons (ENot (EComparison (IField 1 [IEach; IArr 1]) (COrd OGt (RInt 3)))) LNil))).
Definition ex_ctx : ctx :=
  {| cx_vals := [Some (VArray (TArray TBool) [VArray TBool [VBool false]; VArray TBool []; VArray TBool [VBool true; VBool true]]);
                 Some (VMap (TArray TInt) [([97]%N, VArray TInt [VInt 1]); ([98]%N, VArray TInt [VInt 9; VInt 2; VInt 7])])];
     cx_lists := [] |}.
Example C02_premises_satisfiable :
  wt_filter ex_scheme ex_filter = true /\ ctx_ok ex_scheme ex_ctx = true /\
  run_filter ex_scheme ex_filter ex_ctx = Some false /\
  mei_collect [IEach; IEach] (VArray (TArray TBool) [VArray TBool [VBool false]; VArray TBool []; VArray TBool [VBool true; VBool true]])
  = Some [VBool false; VBool true; VBool true].
Proof. vm_compute. repeat split. Qed.

Check C02_exec_is_denote : forall (sch : scheme) (e : lexpr) (c : ctx),
  wt_filter sch e = true -> ctx_ok sch c = true -> fns_ok sch ->
  exists b, run_filter sch e c = Some b /\ denote_filter sch e c = Some b.
