(* Proofs about Sem/RangeSet.v: the sort/merge normalisation denotes the same
   set of points, produces a separated list sorted by start, and the std
   binary search decides membership on such a list; the first..last range of a
   CIDR block holds the addresses of the block. *)
From Coq Require Import List ZArith Bool Lia Sorted Permutation.
From WF Require Import Sem.RangeSet Spec.C09.
Import ListNotations.
Local Open Scope Z_scope.

Definition inr (x : Z) (r : range) : Prop := fst r <= x <= snd r.
Definition inrs (x : Z) (l : list range) : Prop := exists r, In r l /\ inr x r.
Definition by_start (a b : range) := fst a <= fst b.

Lemma in_range_inr x r : in_range x r = true <-> inr x r.
Proof. unfold in_range, inr. rewrite andb_true_iff, !Z.leb_le. tauto. Qed.

Lemma existsb_inrs x l : existsb (in_range x) l = true <-> inrs x l.
Proof. rewrite existsb_exists. unfold inrs. now setoid_rewrite in_range_inr. Qed.

Lemma existsb_ext_inrs x l1 l2 :
  (inrs x l1 <-> inrs x l2) -> existsb (in_range x) l1 = existsb (in_range x) l2.
Proof. intros H. apply eq_true_iff_eq. now rewrite !existsb_inrs. Qed.

Lemma inrs_cons x a l : inrs x (a :: l) <-> inr x a \/ inrs x l.
Proof.
  unfold inrs. cbn [In]. split.
  - intros (r & [<-|Hr] & H); eauto.
  - intros [H|(r & Hr & H)]; eauto.
Qed.


Lemma insert_perm r l : Permutation (r :: l) (insert_by_start r l).
Proof.
  induction l as [|h t IH]; cbn [insert_by_start]; [reflexivity|].
  destruct (fst r <=? fst h); [reflexivity|].
  rewrite perm_swap. now constructor.
Qed.

Lemma insert_sorted r l :
  StronglySorted by_start l -> StronglySorted by_start (insert_by_start r l).
Proof.
  induction l as [|h t IH]; intros Hs; cbn [insert_by_start].
  - repeat constructor.
  - destruct (StronglySorted_inv Hs) as [Hs' Hf].
    destruct (fst r <=? fst h) eqn:E.
    + apply Z.leb_le in E. constructor; auto. constructor; [exact E|].
      eapply Forall_impl; [|exact Hf]. unfold by_start. intros a Ha. lia.
    + apply Z.leb_gt in E. constructor; [now apply IH|].
      eapply Permutation_Forall; [apply insert_perm|].
      constructor; [unfold by_start; lia|exact Hf].
Qed.

Lemma sort_perm l : Permutation l (sort_by_start l).
Proof.
  induction l as [|a l IH]; cbn; [constructor|].
  etransitivity; [|apply insert_perm]. now constructor.
Qed.

Lemma sort_sorted l : StronglySorted by_start (sort_by_start l).
Proof. induction l as [|a l IH]; cbn; [constructor|now apply insert_sorted]. Qed.

Lemma inrs_perm x l l' : Permutation l l' -> (inrs x l <-> inrs x l').
Proof. intros P. unfold inrs. now setoid_rewrite P. Qed.


Lemma ss_same_start a a' l :
  fst a' = fst a -> StronglySorted by_start (a :: l) -> StronglySorted by_start (a' :: l).
Proof.
  intros E H. destruct (StronglySorted_inv H) as [Hs Hf]. constructor; [exact Hs|].
  unfold by_start in *. rewrite E. exact Hf.
Qed.

(* the head may absorb its successor when that leaves its start unchanged *)
Lemma ss_merge_step a a' b l :
  fst a' = fst a -> StronglySorted by_start (a :: b :: l) -> StronglySorted by_start (a' :: l).
Proof.
  intros E Hs. apply ss_same_start with (a := a); [exact E|].
  destruct (StronglySorted_inv Hs) as [Hs' Hf].
  constructor; [exact (proj1 (StronglySorted_inv Hs'))|exact (Forall_inv_tail Hf)].
Qed.

Lemma merge_from_union : forall l a x,
  StronglySorted by_start (a :: l) ->
  (inrs x (merge_from a l) <-> inr x a \/ inrs x l).
Proof.
  induction l as [|b tl IH]; intros a x Hs; cbn [merge_from]; [apply inrs_cons|].
  destruct (StronglySorted_inv Hs) as [Hs' Hf]. pose proof (Forall_inv Hf) as Hab. unfold by_start in Hab.
  rewrite (inrs_cons x b tl). destruct (fst b <=? snd a) eqn:E.
  - (* b starts inside a: the two are replaced by their union *)
    apply Z.leb_le in E. set (a' := if snd a <? snd b then _ else _).
    assert (Ha' : fst a' = fst a /\ (inr x a' <-> inr x a \/ inr x b)).
    { unfold a', inr. destruct (Z.ltb_spec (snd a) (snd b)); cbn [fst snd]; lia. }
    rewrite IH, (proj2 Ha'); [tauto|]. exact (ss_merge_step a a' b tl (proj1 Ha') Hs).
  - rewrite inrs_cons, (IH b x Hs'). tauto.
Qed.

(* Separated and sorted by start: every later range starts strictly above
   every earlier end and not below any earlier start. *)
Inductive sepsorted : list range -> Prop :=
| ss_nil : sepsorted []
| ss_cons a l :
    Forall (fun b => snd a < fst b /\ fst a <= fst b) l -> sepsorted l -> sepsorted (a :: l).

Lemma merge_from_sep : forall l a,
  StronglySorted by_start (a :: l) ->
  sepsorted (merge_from a l) /\ Forall (fun r => fst a <= fst r) (merge_from a l).
Proof.
  induction l as [|b tl IH]; intros a Hs; cbn [merge_from].
  - split; repeat constructor. lia.
  - destruct (StronglySorted_inv Hs) as [Hs' Hf]. pose proof (Forall_inv Hf) as Hab. unfold by_start in Hab.
    destruct (Z.leb_spec (fst b) (snd a)) as [E|E].
    + set (a' := if snd a <? snd b then _ else _).
      assert (Ha' : fst a' = fst a) by (unfold a'; now destruct (snd a <? snd b)).
      rewrite <- Ha'. apply IH. exact (ss_merge_step a a' b tl Ha' Hs).
    + destruct (IH b Hs') as [H1 H2].
      split; constructor; try lia; try assumption; (eapply Forall_impl; [|exact H2]); cbn; intros r Hr; lia.
Qed.

Lemma merge_sep l : StronglySorted by_start l -> sepsorted (merge l).
Proof. destruct l as [|a tl]; intros H; cbn; [constructor|]. now apply merge_from_sep. Qed.

Lemma merge_union l x : StronglySorted by_start l -> (inrs x (merge l) <-> inrs x l).
Proof. destruct l as [|a tl]; intros H; cbn [merge]; [tauto|]. now rewrite merge_from_union, inrs_cons. Qed.


Lemma sepsorted_nth : forall l i j a b,
  sepsorted l -> (i < j)%nat -> nth_error l i = Some a -> nth_error l j = Some b ->
  snd a < fst b /\ fst a <= fst b.
Proof.
  induction l as [|h t IH]; intros i j a b Hs Hij Hi Hj; [destruct i; discriminate|].
  inversion Hs as [|? ? Hf Hs']; subst. destruct j as [|j']; [lia|]. destruct i as [|i']; cbn in Hi, Hj.
  - injection Hi as <-. apply nth_error_In in Hj. rewrite Forall_forall in Hf. now apply Hf.
  - apply (IH i' j' a b Hs'); auto. lia.
Qed.

Lemma sepsorted_around l x i j ri rj :
  sepsorted l -> nth_error l i = Some ri -> inr x ri -> nth_error l j = Some rj ->
  ((j < i)%nat -> snd rj < x /\ fst rj <= x) /\ ((i < j)%nat -> x < fst rj).
Proof.
  intros Hs Hi Hx Hj. unfold inr in Hx. split; intros Hlt.
  - destruct (sepsorted_nth l j i rj ri Hs Hlt Hj Hi). lia.
  - destruct (sepsorted_nth l i j ri rj Hs Hlt Hi Hj). lia.
Qed.

Definition IsEq (l : list range) (x : Z) (i : nat) : Prop :=
  exists r, nth_error l i = Some r /\ cmp_range x r = Eq.

Lemma cmp_range_Eq x r : cmp_range x r = Eq <-> inr x r.
Proof.
  unfold cmp_range, inr. rewrite Z.gtb_ltb, Z.geb_leb.
  destruct (Z.ltb_spec x (fst r)), (Z.leb_spec x (snd r)); split; intros; (discriminate || lia || reflexivity).
Qed.

Lemma cmp_range_Gt x r : cmp_range x r = Gt <-> x < fst r.
Proof.
  unfold cmp_range. rewrite Z.gtb_ltb. destruct (Z.ltb_spec x (fst r)); [easy|].
  destruct (snd r >=? x); split; (discriminate || lia).
Qed.

(* the new base of the search step *)
Lemma cmp_range_base x r (base mid : nat) :
  match cmp_range x r with Gt => base | _ => mid end = if x <? fst r then base else mid.
Proof.
  destruct (Z.ltb_spec x (fst r)) as [H|H]; [now rewrite (proj2 (cmp_range_Gt x r) H)|].
  destruct (cmp_range x r) eqn:E; try reflexivity. apply cmp_range_Gt in E. lia.
Qed.

Lemma existsb_IsEq l x : existsb (in_range x) l = true <-> exists i, IsEq l x i.
Proof.
  rewrite existsb_exists. unfold IsEq. setoid_rewrite cmp_range_Eq. setoid_rewrite in_range_inr. split.
  - intros (r & Hin & Hr). apply In_nth_error in Hin. destruct Hin as (i & Hi). eauto.
  - intros (i & r & Hi & Hr). eauto using nth_error_In.
Qed.

Lemma div2_bounds n : (2 <= n)%nat -> (1 <= Nat.div2 n /\ Nat.div2 n <= n - Nat.div2 n /\ Nat.div2 n < n)%nat.
Proof.
  intros H. pose proof (Nat.div2_odd n) as E.
  destruct (Nat.odd n); cbn [Nat.b2n] in E; lia.
Qed.

(* invariant of the halving loop: every index whose range contains x lies in [base, base + size) *)
Lemma bsearch_loop_ok : forall fuel l x base size,
  sepsorted l -> (1 <= size)%nat -> (base + size <= length l)%nat -> (size <= S fuel)%nat ->
  (forall i, IsEq l x i -> (base <= i < base + size)%nat) ->
  exists b, bsearch_loop fuel l x base size = Some b /\ (b < length l)%nat /\
            (forall i, IsEq l x i -> i = b).
Proof.
  induction fuel as [|fuel IH]; intros l x base size Hs H1 Hlen Hfuel Hinv; cbn [bsearch_loop];
    destruct (Nat.leb_spec size 1) as [Esz|Esz]; try lia.
  1, 2: exists base; split; [reflexivity|]; split; [lia|]; intros i Hi; apply Hinv in Hi; lia.
  destruct (div2_bounds size) as (Hh1 & Hh2 & Hh3); [lia|]. set (half := Nat.div2 size) in *.
  destruct (nth_error l (base + half)) as [r|] eqn:Emid; [|apply nth_error_None in Emid; lia].
  rewrite cmp_range_base. apply IH; auto; try (destruct (x <? fst r); lia).
  intros i Hi. pose proof (Hinv i Hi) as Hb. destruct Hi as (ri & Hri & Ei). apply cmp_range_Eq in Ei.
  destruct (sepsorted_around l x i _ ri r Hs Hri Ei Emid) as (Hlo & Hhi).
  destruct (Z.ltb_spec x (fst r)); destruct (Nat.lt_trichotomy i (base + half)) as [Hlt|[->|Hgt]]; try lia.
  rewrite Emid in Hri. injection Hri as ->. unfold inr in Ei. lia.
Qed.

Theorem rangeset_contains_sepsorted l x :
  sepsorted l -> rangeset_contains l x = Some (existsb (in_range x) l).
Proof.
  intros Hs. destruct l as [|a tl] eqn:El; [reflexivity|]. rewrite <- El in *.
  assert (Hne : (1 <= length l)%nat) by (subst; cbn; lia).
  unfold rangeset_contains.
  destruct (bsearch_loop_ok (length l) l x 0%nat (length l)) as (b & Hb & Hlt & Huniq); auto; try lia.
  { intros i (r & Hr & _). assert (Hn : nth_error l i <> None) by congruence.
    apply nth_error_Some in Hn. lia. }
  rewrite El at 1. rewrite Hb.
  destruct (nth_error l b) as [r|] eqn:Er; [|apply nth_error_None in Er; lia].
  f_equal. apply eq_true_iff_eq. rewrite existsb_IsEq. split.
  - intros E. exists b, r. split; [exact Er|]. now destruct (cmp_range x r).
  - intros (i & Hi). rewrite (Huniq i Hi) in Hi. destruct Hi as (r' & Hr' & E). rewrite Er in Hr'.
    injection Hr' as <-. now rewrite E.
Qed.

(* Whatever (unstable) sort is used: any permutation sorted by start works. *)
Theorem rangeset_any_sort l l' x :
  Permutation l l' -> StronglySorted by_start l' ->
  rangeset_contains (merge l') x = Some (existsb (in_range x) l).
Proof.
  intros P S. rewrite rangeset_contains_sepsorted by now apply merge_sep.
  f_equal. apply existsb_ext_inrs. rewrite merge_union by exact S.
  symmetry. now apply inrs_perm.
Qed.

Theorem rangeset_contains_spec l x :
  rangeset_contains (rangeset_from l) x = Some (existsb (in_range x) l).
Proof. apply rangeset_any_sort; [apply sort_perm|apply sort_sorted]. Qed.


Lemma cidr_range_spec bits a n v :
  0 <= n <= bits -> a mod 2 ^ (bits - n) = 0 ->
  in_range v (cidr_range bits a n) = in_cidr bits a n v.
Proof.
  intros Hn Hmod. unfold cidr_range, in_cidr, in_range. cbn [fst snd].
  set (h := bits - n) in *. assert (Hh : 0 <= h) by (unfold h; lia).
  assert (Hp : 0 < 2 ^ h) by (apply Z.pow_pos_nonneg; lia).
  assert (Hlor : Z.lor a (2 ^ h - 1) = a + (2 ^ h - 1)).
  { assert (Hland : Z.land a (2 ^ h - 1) = 0).
    { replace (2 ^ h - 1) with (Z.ones h) by (rewrite Z.ones_equiv; lia).
      rewrite Z.land_ones by exact Hh. exact Hmod. }
    rewrite <- Z.lxor_lor by exact Hland. symmetry. now apply Z.add_nocarry_lxor. }
  rewrite Hlor. set (p := 2 ^ h) in *.
  assert (Ha : a = p * (a / p)) by (pose proof (Z.div_mod a p) as D; rewrite Hmod in D; lia).
  apply eq_true_iff_eq. rewrite andb_true_iff, !Z.leb_le, Z.eqb_eq. split.
  - intros [H1 H2]. symmetry. apply Z.div_unique_pos with (r := v - a); lia.
  - intros E. pose proof (Z.div_mod v p ltac:(lia)) as D. pose proof (Z.mod_pos_bound v p Hp) as B.
    rewrite E in D. lia.
Qed.
