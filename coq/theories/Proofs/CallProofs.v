(* Function calls: the assumptions on user functions ([fn_ok], [fns_ok]), what
   a call passes to the function, map-each application, the closures of
   [compile_call_with].  That the library and the built-in concat meet the
   assumptions is Proofs/FunsProofs.v. *)
From Coq Require Import List Bool Lia Arith.
From WF Require Import Lang.Types Lang.Ast Lang.Context Sem.Compile Spec.Denote Proofs.ListFacts
     Proofs.ScalarProofs Proofs.ExecProofs Proofs.ByteKeys.
Import ListNotations.

(* parameter types of a definition: mandatory ones, then the optional ones' default types *)
Definition sig_of (d : fn_def) : list (arg_kind * ty) :=
  fn_params d ++ map (fun p => (fst p, type_of (snd p))) (fn_opt_params d).

(* What the engine may assume about user code (C03: "registered function"):
   given arguments of the declared types it does not panic and its result, if
   any, has the declared return type; declared defaults are well-formed values. *)
Definition fn_ok (d : fn_def) : Prop :=
  Forall (fun p => value_wf (snd p) = true) (fn_opt_params d) /\
  (if fn_variadic_same d then
     forall t vs, match t with TArray _ | TBytes => True | _ => False end ->
       Forall (fun r => vres_typed r t = true) vs ->
       exists r, fn_impl d vs = Some r /\ match r with Some v => has_type v t = true | None => True end
   else
     forall vs, Forall2 (fun r kt => vres_typed r (snd kt) = true) vs (sig_of d) ->
       exists r, fn_impl d vs = Some r /\ match r with Some v => has_type v (fn_ret d) = true | None => True end).

Definition fns_ok (sch : scheme) : Prop := forall fn d, fn_of sch fn = Some d -> fn_ok d.

Definition defaults_of (d : fn_def) (n : nat) : list vres :=
  map (fun p => VOk (snd p)) (skipn (n - length (fn_params d)) (fn_opt_params d)).

Lemma defaults_typed d n :
  Forall (fun p => value_wf (snd p) = true) (fn_opt_params d) ->
  (length (fn_params d) <= n)%nat ->
  Forall2 (fun r kt => vres_typed r (snd kt) = true) (defaults_of d n) (skipn n (sig_of d)).
Proof.
  intros Hwf Hn. unfold sig_of, defaults_of. rewrite skipn_app, (skipn_all2 _ Hn), skipn_map.
  apply (Forall_cut _ (n - length (fn_params d))) in Hwf as [_ Hwf].
  induction Hwf as [|p l Hp _ IH]; constructor; [|exact IH].
  exact (has_type_of _ Hp).
Qed.

Lemma compile_simple_variadic d n : fn_variadic_same d = true -> compile_simple d n = Some (fn_impl d).
Proof. intros H. unfold compile_simple. now rewrite H. Qed.

Lemma compile_simple_fixed d n :
  (fn_variadic_same d = false) ->
  (length (fn_params d) <= n)%nat -> (n <= length (fn_params d) + length (fn_opt_params d))%nat ->
  (compile_simple d n =
   Some (fun a : list vres => if Nat.eqb n (length a) then fn_impl d (a ++ defaults_of d n) else None)).
Proof.
  intros Hv H1 H2. unfold compile_simple, defaults_of. rewrite Hv.
  now rewrite !(proj2 (Nat.ltb_ge _ _)) by lia.
Qed.

(* the per-element loop of a mapped call *)
Lemma filter_map_call_spec ret (call : list vres -> M (option value)) (impl : list vres -> option (option value))
      (ex : list vres) (extra : value -> M (list vres)) elems :
  (forall e, In e elems -> extra e = Some ex) ->
  (forall e, In e elems ->
     exists o, call (VOk e :: ex) = Some o /\ impl (VOk e :: ex) = Some o /\
               match o with Some v => has_type v ret = true | None => True end) ->
  exists os, all_some (map (fun x => impl (VOk x :: ex)) elems) = Some os /\
             filter_map_call ret call extra elems = Some (filter_map_opt (fun r => r) os) /\
             Forall (fun v => has_type v ret = true) (filter_map_opt (fun r => r) os).
Proof.
  induction elems as [|e elems IH]; intros Hex Hcall.
  - exists []. repeat split; constructor.
  - destruct IH as (os & H1 & H2 & H3); [intros; apply Hex; now right|intros; apply Hcall; now right|].
    destruct (Hcall e (or_introl eq_refl)) as (o & Hc & Hi & Ho).
    exists (o :: os). cbn [map all_some filter_map_call]. rewrite Hi, H1, (Hex e (or_introl eq_refl)), Hc.
    split; [reflexivity|]. destruct o as [v|]; [|now rewrite H2].
    rewrite (has_type_ty v ret Ho), H2. split; [reflexivity|now constructor].
Qed.

Lemma mapM_evals {X} c (fs : list (ctx -> M X)) xs : evals c fs xs -> mapM (fun g => g c) fs = Some xs.
Proof. induction 1 as [|g r gs rs Hg _ IH]; cbn; [reflexivity|]. now rewrite Hg, IH. Qed.

Definition args_mapped (al : list arg) : bool :=
  match al with a0 :: _ => Nat.ltb 0 (arg_map_each_count a0) | [] => false end.

(* FunctionCallExpr::compile_with_compiler returns one direct application, or, when
   the first argument has [*], one of three closures over [compute] *)
Definition call_plain (cargs : list cval) (ret : ty) (callf : list vres -> M (option value)) : cval :=
  fun c =>
    vs <- mapM (fun g => g c) cargs ;;
    o <- callf vs ;;
    match o with
    | Some v => if ty_eqb (type_of v) ret then Some (VOk v) else None
    | None => Some (VAbsent ret)
    end.

Definition call_mapped (first : cval) (rest : list cval) (memo : bool) (ret : ty)
           (callf : list vres -> M (option value)) : cval :=
  match rest with
  | [] => fun c => f <- first c ;; compute f ret callf (fun _ => Some [])
  | _ :: _ =>
      if memo then fun c => ex <- mapM (fun g => g c) rest ;; f <- first c ;; compute f ret callf (fun _ => Some ex)
      else fun c => f <- first c ;; compute f ret callf (fun _ => mapM (fun g => g c) rest)
  end.

Lemma compile_call_with_eq sch fn a cargs :
  compile_call_with sch fn a cargs =
  (d <- fn_of sch fn ;;
   ret <- ty_ret sch fn a ;;
   callf <- compile_simple d (length (args_to_list a)) ;;
   if args_mapped (args_to_list a) then
     match cargs with
     | [] => None
     | first :: rest => Some (call_mapped first rest (existsb arg_expensive (tl (args_to_list a))) ret callf)
     end
   else Some (call_plain cargs ret callf)).
Proof.
  unfold compile_call_with. destruct (fn_of sch fn) as [d|]; [|reflexivity].
  destruct (ty_ret sch fn a) as [ret|]; [|reflexivity].
  destruct (compile_simple d _) as [callf|]; [|reflexivity].
  destruct (args_to_list a) as [|a0 al]; [reflexivity|]. cbn [args_mapped tl].
  destruct (Nat.ltb 0 _); [|reflexivity]. destruct cargs as [|first [|g rest]]; try reflexivity.
  cbn [call_mapped]. now destruct (existsb arg_expensive al).
Qed.

Section Runs.
Variable c : ctx.

Lemma call_plain_runs cargs ret callf rs o :
  evals c cargs rs -> callf rs = Some o ->
  match o with Some v => has_type v ret = true | None => True end ->
  call_plain cargs ret callf c = Some (res_of o ret).
Proof.
  intros Hev Ho Hto. unfold call_plain. rewrite (mapM_evals c cargs rs Hev), Ho.
  destruct o as [v|]; [rewrite (has_type_ty v ret Hto)|]; reflexivity.
Qed.

(* whichever closure is chosen, it runs [compute] with the other arguments
   evaluated against the same context *)
Lemma call_mapped_runs first rest memo ret callf r0 rs :
  first c = Some r0 -> evals c rest rs ->
  exists extra, (forall e : value, extra e = Some rs) /\
                call_mapped first rest memo ret callf c = compute r0 ret callf extra.
Proof.
  intros Hfirst Hrest. pose proof (mapM_evals c rest rs Hrest) as Hm.
  destruct Hrest as [|g r rest rs _ _]; [|destruct memo]; eexists (fun _ => Some _);
    (split; [reflexivity|]); cbn [call_mapped]; now rewrite ?Hm, Hfirst.
Qed.

End Runs.
