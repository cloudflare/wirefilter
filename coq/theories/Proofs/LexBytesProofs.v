(* C06: byte-string literals: quoted (all escape forms), raw, hex pairs. *)
From Coq Require Import List ZArith Bool Lia.
From WF Require Import Base.Bytes Lang.Ast Parse.Lex Spec.C06 Proofs.LexBase.
Import ListNotations.
Local Open Scope Z_scope.

Lemma fixed_byte_digits : forall radix ds b rest, ds <> [] ->
  Forall (fun c => is_ascii c && is_hexdigit c = true) ds -> digits_val radix ds 0 = Some (Z.of_N b) -> (b < 256)%N ->
  fixed_byte (length ds) radix (ds ++ rest) = LOk b rest.
Proof.
  intros radix ds b rest Hne Hd Hv Hb. unfold fixed_byte.
  rewrite take_ascii by (eapply Forall_impl; [|exact Hd]; unfold is_ascii; lia). cbn [lbind].
  destruct ds as [|c t]; [contradiction|]. unfold u8_from_digits.
  rewrite (proj2 (forallb_forall _ _)), Hv, N2Z.id by (now apply Forall_forall).
  now replace (Z.of_N b <? 256) with true by lia.
Qed.

Lemma hexpair_lex : forall u1 u2 b rest, (b < 256)%N -> hex_byte (print_hexpair u1 u2 b ++ rest) = LOk b rest.
Proof.
  intros u1 u2 b rest H.
  assert (H1 : 0 <= Z.of_N b / 16 < 16) by (split; [apply Z.div_pos|apply Z.div_lt_upper_bound]; lia).
  pose proof (Z.mod_pos_bound (Z.of_N b) 16 ltac:(lia)) as H2.
  apply (fixed_byte_digits 16 [_; _]); [discriminate|repeat constructor; now apply digit_char_text| |exact H].
  rewrite !digits_val_step by lia. cbn [digits_val]. f_equal. pose proof (Z.div_mod (Z.of_N b) 16). lia.
Qed.

Lemma oct_byte_digits : forall b rest, (b < 256)%N ->
  oct_byte (digit_char false (Z.of_N b / 64) :: digit_char false (Z.of_N b / 8 mod 8) ::
            digit_char false (Z.of_N b mod 8) :: rest) = LOk b rest.
Proof.
  intros b rest H. change 64 with (8 * 8). rewrite <- Z.div_div by lia.
  pose proof (Z.div_mod (Z.of_N b) 8 ltac:(lia)) as E1. pose proof (Z.mod_pos_bound (Z.of_N b) 8 ltac:(lia)) as H1.
  pose proof (Z.div_mod (Z.of_N b / 8) 8 ltac:(lia)) as E2. pose proof (Z.mod_pos_bound (Z.of_N b / 8) 8 ltac:(lia)) as H2.
  apply (fixed_byte_digits 8 [_; _; _]); [discriminate|repeat constructor; apply digit_char_text; lia| |exact H].
  rewrite !digits_val_step by lia. cbn [digits_val]. f_equal. lia.
Qed.

Lemma take_chars_ascii_len : forall n s ds rest, take_chars n s = Some (ds, rest) ->
  forallb is_ascii ds = true -> length ds = n.
Proof.
  induction n as [|n IH]; intros s ds rest H Ha; cbn [take_chars] in H.
  - now injection H as <- _.
  - destruct s as [|b s']; [discriminate|]. unfold next_char in H. cbv zeta in H.
    destruct (take_chars n _) as [[t rest']|] eqn:E2; [|discriminate]. injection H as <- _.
    pose proof (char_len_pos b). destruct (char_len b) as [|k] eqn:Ek; [lia|].
    cbn [firstn app forallb] in Ha. apply andb_prop in Ha as [Hb Ha].
    unfold char_len in Ek. unfold is_ascii in Hb. rewrite Hb in Ek. injection Ek as <-. cbn [firstn app forallb length] in *.
    f_equal. eapply IH; eassumption.
Qed.

Lemma fixed_byte_cases : forall n radix input,
  (exists k len, fixed_byte n radix input = LErr k input len /\ (len <= length input)%nat) \/
  (exists b rest ds v, fixed_byte n radix input = LOk b rest /\ input = ds ++ rest /\ length ds = n /\
     forallb is_hexdigit ds = true /\ digits_val radix ds 0 = Some v /\ v < 256 /\ b = Z.to_N v).
Proof.
  intros n radix input. unfold fixed_byte, take.
  destruct (take_chars n input) as [[ds r]|] eqn:E; [|left; now eexists _, _]. cbn [lbind].
  destruct (take_chars_split _ _ _ _ E) as [Es _].
  assert (Herr : exists k len, @LErr N EParseInt input (length ds) = LErr k input len /\ (len <= length input)%nat).
  { eexists _, _. split; [reflexivity|]. rewrite Es, app_length. lia. }
  unfold u8_from_digits. destruct ds as [|d0 ds0]; [now left|].
  destruct (forallb _ (d0 :: ds0)) eqn:Ef; [|now left].
  destruct (digits_val radix (d0 :: ds0) 0) as [v|] eqn:Ev; [|now left].
  destruct (v <? 256) eqn:El; [|now left].
  assert (Ha : forallb is_ascii (d0 :: ds0) = true /\ forallb is_hexdigit (d0 :: ds0) = true).
  { rewrite !forallb_forall in *. split; intros x Hx; specialize (Ef x Hx); lia. }
  right. exists (Z.to_N v), r, (d0 :: ds0), v. split; [reflexivity|]. split; [exact Es|].
  split; [now apply (take_chars_ascii_len _ _ _ _ E)|]. repeat split; (apply Ha || assumption || lia).
Qed.

Lemma digits_val_cons_inv : forall radix c t a v, digits_val radix (c :: t) a = Some v ->
  Z.of_N (hexval c) < radix /\ digits_val radix t (a * radix + Z.of_N (hexval c)) = Some v.
Proof. intros radix c t a v H. cbn [digits_val] in H. destruct (_ <? radix) eqn:E; [split; [lia|assumption]|discriminate]. Qed.

Lemma octdigit_of_val : forall x, is_hexdigit x = true -> Z.of_N (hexval x) < 8 ->
  oct_digit_byte x = true /\ Z.of_N x = 48 + Z.of_N (hexval x).
Proof. intros x H Hv. pose proof (hexval_cases x H). unfold oct_digit_byte. lia. Qed.

(* three digits that u8::from_str_radix(_, 8) accepts *)
Lemma oct_digits_good : forall o1 o2 o3 v, forallb is_hexdigit [o1; o2; o3] = true ->
  digits_val 8 [o1; o2; o3] 0 = Some v -> v < 256 ->
  oct_digit_byte o1 = true /\ oct_digit_byte o2 = true /\ oct_digit_byte o3 = true /\ (o1 <= 51)%N.
Proof.
  intros o1 o2 o3 v Hf Hv Hlt. cbn [forallb] in Hf.
  apply andb_prop in Hf as [F1 Hf]. apply andb_prop in Hf as [F2 Hf]. apply andb_prop in Hf as [F3 _].
  apply digits_val_cons_inv in Hv as [V1 Hv]. apply digits_val_cons_inv in Hv as [V2 Hv].
  apply digits_val_cons_inv in Hv as [V3 [= <-]].
  destruct (octdigit_of_val o1 F1 V1) as [O1 E1]. destruct (octdigit_of_val o2 F2 V2) as [O2 _].
  destruct (octdigit_of_val o3 F3 V3) as [O3 _]. repeat split; try assumption. clear - E1 Hlt. lia.
Qed.

(* The two nested matches on characters in quoted_go, decided once with the branches left abstract. *)
Lemma quote_dispatch : forall A n (b : N) (r : bytes) (x y z : A), (1 <= n)%nat -> b <> 92%N -> b <> 34%N ->
  match firstn n (b :: r) with [92%N] => x | [34%N] => y | _ => z end = z.
Proof.
  intros A n b r x y z Hn H1 H2. destruct n as [|n]; [lia|]. cbn [firstn].
  by_bits b; destruct (firstn n r); reflexivity || congruence.
Qed.

Lemma escape_dispatch : forall A (d : N) (tl : bytes) (x y z e : A) (g : N -> A), d <> 34%N -> d <> 92%N -> d <> 120%N ->
  match d :: tl with [34%N] => x | [92%N] => y | [120%N] => z | [c] => g c | _ => e end =
  match tl with [] => g d | _ => e end.
Proof. intros A d tl x y z e g H1 H2 H3. by_bits d; destruct tl; reflexivity || congruence. Qed.

(* the same on the first [n] bytes of the text, [n] being the length of its first character: an octal
   digit is a character by itself *)
Lemma escape_dispatch_char : forall A n (d : N) (r : bytes) (x y z o : A) (e : nat -> A),
  (1 <= n)%nat -> ((d < 128)%N -> n = 1%nat) -> d <> 34%N -> d <> 92%N -> d <> 120%N ->
  match firstn n (d :: r) with
  | [34%N] => x | [92%N] => y | [120%N] => z
  | [c] => if ((48 <=? c) && (c <=? 55))%N then o else e 1%nat
  | _ => e (length (firstn n (d :: r)))
  end = if ((48 <=? d) && (d <=? 55))%N then o else e (length (firstn n (d :: r))).
Proof.
  intros A n d r x y z o e Hn H1n H1 H2 H3. destruct n as [|n]; [lia|]. cbn [firstn].
  rewrite (escape_dispatch _ d _ x y z _ (fun c => if ((48 <=? c) && (c <=? 55))%N then o else e 1%nat)) by assumption.
  destruct (firstn n r) eqn:Et; [reflexivity|]. destruct ((48 <=? d) && (d <=? 55))%N eqn:Eo; [|reflexivity].
  injection (H1n ltac:(lia)) as ->. discriminate Et.
Qed.

Lemma qstep_eof : forall f full acc, quoted_go (S f) full [] acc = LErr EMissingEndingQuote full (length full).
Proof. reflexivity. Qed.
Lemma qstep_end : forall f full r acc, quoted_go (S f) full (34%N :: r) acc = LOk acc r.
Proof. reflexivity. Qed.
Lemma qstep_other : forall f full b r acc, b <> 34%N -> b <> 92%N ->
  quoted_go (S f) full (b :: r) acc =
  quoted_go f full (skipn (char_len b) (b :: r)) (acc ++ firstn (char_len b) (b :: r)).
Proof.
  intros f full b r acc H1 H2. cbn [quoted_go next_char]. cbv zeta.
  apply quote_dispatch; [apply char_len_pos|assumption..].
Qed.
Lemma qstep_bs_eof : forall f full acc, quoted_go (S f) full [92%N] acc = LErr EMissingEndingQuote full (length full).
Proof. reflexivity. Qed.
Lemma qstep_bs_quote : forall f full r acc,
  quoted_go (S f) full (92%N :: 34%N :: r) acc = quoted_go f full r (acc ++ [34%N]).
Proof. reflexivity. Qed.
Lemma qstep_bs_bs : forall f full r acc,
  quoted_go (S f) full (92%N :: 92%N :: r) acc = quoted_go f full r (acc ++ [92%N]).
Proof. reflexivity. Qed.
Lemma qstep_x : forall f full r acc,
  quoted_go (S f) full (92%N :: 120%N :: r) acc =
  match hex_byte r with
  | LOk b rest => quoted_go f full rest (acc ++ [b])
  | LErr k s' n => LErr k s' n
  | LPanic => LPanic
  | LFuel => LFuel
  end.
Proof. reflexivity. Qed.
Lemma qstep_bs_other : forall f full d r acc, d <> 34%N -> d <> 92%N -> d <> 120%N ->
  quoted_go (S f) full (92%N :: d :: r) acc =
  if ((48 <=? d) && (d <=? 55))%N then
    match oct_byte (d :: r) with
    | LOk b rest => quoted_go f full rest (acc ++ [b])
    | LErr k s' n => LErr k s' n
    | LPanic => LPanic
    | LFuel => LFuel
    end
  else LErr EInvalidCharacterEscape (d :: r) (length (firstn (char_len d) (d :: r))).
Proof.
  intros f full d r acc H1 H2 H3. cbn [quoted_go].
  change (next_char (92%N :: d :: r)) with (Some ([92%N], d :: r)). cbv iota beta. unfold next_char. cbv zeta iota beta.
  apply (escape_dispatch_char _ (char_len d) d r _ _ _ _ (fun n => LErr EInvalidCharacterEscape (d :: r) n));
    [apply char_len_pos| |assumption..].
  intros Hd. unfold char_len. now replace (d <? 128)%N with true by lia.
Qed.

Lemma qbody_length : forall l, (length l <= length (print_qbody l))%nat.
Proof.
  induction l as [|[st b] l IH]; cbn [print_qbody length]; [lia|].
  rewrite app_length. destruct st; cbn [print_qbyte length]; lia.
Qed.

Lemma quoted_go_byte : forall f full st b s acc, style_ok st b ->
  quoted_go (S f) full (print_qbyte st b ++ s) acc = quoted_go f full s (acc ++ [b]).
Proof.
  intros f full st b s acc Hok. destruct st as [| |u1 u2|]; cbn [print_qbyte app]; cbn in Hok.
  - rewrite qstep_other by tauto. unfold char_len. now replace (b <? 128)%N with true by lia.
  - destruct Hok as [-> | ->]; reflexivity.
  - rewrite qstep_x. change (_ :: _ :: s) with (print_hexpair u1 u2 b ++ s). now rewrite hexpair_lex.
  - assert (Hd : 0 <= Z.of_N b / 64 < 4) by (split; [apply Z.div_pos|apply Z.div_lt_upper_bound]; lia).
    destruct (digit_char_dec false (Z.of_N b / 64) ltac:(lia)) as [_ Ed].
    rewrite qstep_bs_other, oct_byte_digits by (assumption || lia).
    now replace ((48 <=? _) && _)%N with true by lia.
Qed.

Lemma quoted_go_prefix : forall l f full s acc, styles_ok l ->
  quoted_go (length l + f) full (print_qbody l ++ s) acc = quoted_go f full s (acc ++ map snd l).
Proof.
  induction l as [|[st b] l IH]; intros f full s acc Hok; cbn [length print_qbody app map Nat.add].
  - now rewrite app_nil_r.
  - inversion Hok as [|? ? Hb Hl]; subst.
    now rewrite <- app_assoc, quoted_go_byte, IH, <- app_assoc.
Qed.

(* the fuel lex_quoted_string_as_vec starts with outlasts the printed bytes *)
Lemma lex_quoted_prefix : forall l s, styles_ok l ->
  exists f, lex_quoted_string_as_vec (print_qbody l ++ s) = quoted_go (S f) (print_qbody l ++ s) s (map snd l).
Proof.
  intros l s Hok. exists (length (print_qbody l ++ s) - length l)%nat. unfold lex_quoted_string_as_vec.
  change (map snd l) with ([] ++ map snd l). rewrite <- quoted_go_prefix by assumption. f_equal. rewrite app_length. pose proof (qbody_length l). lia.
Qed.

Lemma lex_bytes_quoted : forall s,
  lex_bytes (34%N :: s) = lmap (fun b => (b, FQuoted)) (lex_quoted_string_as_vec s).
Proof. reflexivity. Qed.
Lemma lex_bytes_raw : forall s,
  lex_bytes (114%N :: s) = lmap (fun p => (fst p, FRaw (snd p))) (lex_raw_string_as_str s).
Proof. reflexivity. Qed.
Lemma lex_bytes_other : forall c s, c <> 34%N -> c <> 114%N ->
  lex_bytes (c :: s) = lmap (fun b => (b, FByte)) (lex_byte_string (c :: s)).
Proof. intros c s H1 H2. unfold lex_bytes. by_bits_default c. Qed.

Theorem quoted_body_lex : forall l rest, styles_ok l ->
  lex_quoted_string_as_vec (print_qbody l ++ 34%N :: rest) = LOk (map snd l) rest.
Proof. intros l rest Hok. now destruct (lex_quoted_prefix l (34%N :: rest) Hok) as [f ->]. Qed.

Theorem quoted_unterminated : forall l, styles_ok l ->
  lex_quoted_string_as_vec (print_qbody l) = LErr EMissingEndingQuote (print_qbody l) (length (print_qbody l)).
Proof. intros l Hok. destruct (lex_quoted_prefix l [] Hok) as [f E]. rewrite app_nil_r in E. now rewrite E. Qed.

(* One iteration of the loop: it stops with an error whose span is the whole text or lies in what is
   left, stops at the closing quote, or goes on with a shorter rest; after a backslash it goes on only
   if a well-formed escape follows. *)
Inductive qstep (f : nat) (full s acc : bytes) : Prop :=
| QMissing : quoted_go (S f) full s acc = LErr EMissingEndingQuote full (length full) -> qstep f full s acc
| QErr k a n : quoted_go (S f) full s acc = LErr k a n -> (exists p, s = p ++ a) -> (n <= length a)%nat ->
    qstep f full s acc
| QEnd r : s = 34%N :: r -> quoted_go (S f) full s acc = LOk acc r -> qstep f full s acc
| QGo r acc' : quoted_go (S f) full s acc = quoted_go f full r acc' ->
    (exists p, s = p ++ r) -> (length r < length s)%nat -> (forall t, s = 92%N :: t -> good_escape t) ->
    qstep f full s acc.

Lemma quoted_go_step : forall f full s acc, qstep f full s acc.
Proof.
  intros f full s acc.
  destruct s as [|b s]; [now apply QMissing|].
  destruct (N.eq_dec b 34) as [->|H34]; [now apply (QEnd _ _ _ _ s)|].
  destruct (N.eq_dec b 92) as [->|H92].
  2:{ eapply QGo; [now apply qstep_other|exists (firstn (char_len b) (b :: s)); symmetry; apply firstn_skipn| |congruence].
      rewrite skipn_length. pose proof (char_len_pos b). cbn [length]. lia. }
  destruct s as [|d r]; [now apply QMissing|].
  destruct (N.eq_dec d 34) as [->|D34].
  { apply (QGo _ _ _ _ r (acc ++ [34%N])); [reflexivity|now exists [92%N; 34%N]|cbn; lia|].
    intros t [= <-]. left. now exists r. }
  destruct (N.eq_dec d 92) as [->|D92].
  { apply (QGo _ _ _ _ r (acc ++ [92%N])); [reflexivity|now exists [92%N; 92%N]|cbn; lia|].
    intros t [= <-]. right; left. now exists r. }
  destruct (N.eq_dec d 120) as [->|D120].
  { generalize (qstep_x f full r acc). unfold hex_byte.
    destruct (fixed_byte_cases 2 16 r) as [(k & n & -> & Hn)|(b & rest & ds & v & -> & -> & Hl & Hf & _)]; intros E;
      [now apply (QErr _ _ _ _ k r n); [|exists [92%N; 120%N]|]|].
    apply (QGo _ _ _ _ rest (acc ++ [b])); [exact E|now exists (92%N :: 120%N :: ds)|cbn [length]; rewrite app_length; lia|].
    intros t [= <-]. destruct ds as [|h1 [|h2 [|]]]; try discriminate Hl. cbn [forallb] in Hf.
    rewrite andb_true_r in Hf. right; right; left. exists h1, h2, rest. split; [reflexivity|now apply andb_prop in Hf]. }
  generalize (qstep_bs_other f full d r acc D34 D92 D120).
  destruct ((48 <=? d)%N && (d <=? 55)%N) eqn:Eo;
    [|intros E; eapply QErr; [exact E|now exists [92%N]|rewrite firstn_length; lia]].
  unfold oct_byte.
  destruct (fixed_byte_cases 3 8 (d :: r)) as [(k & n & -> & Hn)|(b & rest & ds & v & -> & Es & Hl & Hf & Hv & Hlt & _)]; intros E;
    [now apply (QErr _ _ _ _ k (d :: r) n); [|exists [92%N]|]|].
  apply (QGo _ _ _ _ rest (acc ++ [b])); [exact E|exists (92%N :: ds); cbn [app]; now rewrite Es| |].
  - change (length rest < S (length (d :: r)))%nat. rewrite Es, app_length. lia.
  - intros t [= <-]. destruct ds as [|o1 [|o2 [|o3 [|]]]]; try discriminate Hl.
    right; right; right. exists o1, o2, o3, rest. split; [exact Es|now apply (oct_digits_good o1 o2 o3 v)].
Qed.

Theorem bad_escape_vec : forall l r, styles_ok l -> ~ good_escape r ->
  exists k at_ len, lex_quoted_string_as_vec (print_qbody l ++ 92%N :: r) = LErr k at_ len.
Proof.
  intros l r Hok Hbad. destruct (lex_quoted_prefix l (92%N :: r) Hok) as [f ->].
  destruct (quoted_go_step f (print_qbody l ++ 92%N :: r) (92%N :: r) (map snd l)) as [E|k a n E _ _|r' [=] _|r' acc' _ _ _ Hg];
    [eexists _, _, _; exact E..|].
  now elim Hbad; apply Hg.
Qed.

Theorem bad_escape_rejected : forall l r, styles_ok l -> ~ good_escape r ->
  exists k at_ len, lex_bytes (34%N :: print_qbody l ++ 92%N :: r) = LErr k at_ len.
Proof.
  intros l r Hok Hbad. destruct (bad_escape_vec l r Hok Hbad) as (k & a & n & E).
  rewrite lex_bytes_quoted, E. now eexists _, _, _.
Qed.

Lemma lex_byte_sep_ok : forall sp r, lex_byte_sep (sep_char sp :: r) = LOk tt r.
Proof. intros [| |] r; reflexivity. Qed.

(* the error span is the `sep` that take(input, 1) returned: one character, all bytes of its UTF-8 encoding *)
Lemma lex_byte_sep_eq : forall b r, lex_byte_sep (b :: r) =
  if ((b =? 58) || (b =? 45) || (b =? 46))%N then LOk tt r
  else LErr EExpectedName (b :: r) (length (firstn (char_len b) (b :: r))).
Proof.
  intros b r.
  destruct (N.eqb_spec b 58) as [->|H1]; [reflexivity|]. destruct (N.eqb_spec b 45) as [->|H2]; [reflexivity|].
  destruct (N.eqb_spec b 46) as [->|H3]; [reflexivity|]. cbn [orb].
  unfold lex_byte_sep, take. cbn [take_chars]. unfold next_char.
  pose proof (char_len_pos b). destruct (char_len b) as [|k]; [lia|]. cbn [firstn lbind app]. rewrite app_nil_r.
  by_bits_default b; destruct (firstn k r); reflexivity || congruence.
Qed.

Lemma lex_byte_sep_stop : forall rest, hexpairs_follow_ok rest -> exists k a n, lex_byte_sep rest = LErr k a n.
Proof.
  intros [|b r] H; [now eexists _, _, _|]. cbn in H. rewrite lex_byte_sep_eq, H. now eexists _, _, _.
Qed.

Definition hextail_ok (l : list (byte_sep * (bool * bool) * N)) : Prop := Forall (fun x => (snd x < 256)%N) l.

Lemma byte_string_go_print : forall l fuel u1 u2 b acc rest,
  (b < 256)%N -> hextail_ok l -> hexpairs_follow_ok rest -> (length l < fuel)%nat ->
  byte_string_go fuel (print_hexpair u1 u2 b ++ print_hextail l ++ rest) acc = LOk (acc ++ b :: map snd l) rest.
Proof.
  induction l as [|[[sp [v1 v2]] b'] l IH]; intros fuel u1 u2 b acc rest Hb Hl Hr Hf;
    (destruct fuel as [|f]; [cbn in Hf; lia|]); cbn [byte_string_go]; rewrite hexpair_lex by assumption; cbn [lbind].
  - cbn [print_hextail app map]. now destruct (lex_byte_sep_stop rest Hr) as (k & s & n & ->).
  - inversion Hl as [|? ? Hb' Hl']; subst. cbn [print_hextail app length] in *.
    rewrite lex_byte_sep_ok, <- app_assoc, IH, <- app_assoc by (assumption || lia). reflexivity.
Qed.

Lemma hextail_length : forall l, (length l <= length (print_hextail l))%nat.
Proof.
  induction l as [|[[sp [v1 v2]] b] l IH]; [cbn; lia|].
  cbn [print_hextail length]. rewrite app_length. cbn [print_hexpair length]. lia.
Qed.

Theorem hexpairs_lex : forall u1 u2 b0 l rest,
  (b0 < 256)%N -> hextail_ok l -> l <> [] -> hexpairs_follow_ok rest ->
  lex_byte_string (print_hexpairs u1 u2 b0 l ++ rest) = LOk (b0 :: map snd l) rest.
Proof.
  intros u1 u2 b0 l rest Hb Hl Hne Hr. unfold lex_byte_string, print_hexpairs.
  rewrite <- app_assoc, hexpair_lex by assumption. cbn [lbind].
  destruct l as [|[[sp [v1 v2]] b'] l]; [contradiction|]. inversion Hl as [|? ? Hb' Hl']; subst.
  cbn [print_hextail app]. rewrite lex_byte_sep_ok. cbn [lbind]. rewrite <- app_assoc.
  apply byte_string_go_print; try assumption.
  pose proof (hextail_length l). repeat (rewrite ?app_length; cbn [length]). lia.
Qed.

Lemma count_hashes_hash : forall r, count_hashes (35%N :: r) = S (count_hashes r).
Proof. reflexivity. Qed.
Lemma count_hashes_other : forall b r, b <> 35%N -> count_hashes (b :: r) = O.
Proof. intros b r H. cbn [count_hashes]. by_bits b; congruence. Qed.
Lemma count_hashes_nil : count_hashes [] = O.
Proof. reflexivity. Qed.

Lemma count_hashes_leading : forall s, count_hashes s = leading_hashes s.
Proof. reflexivity. Qed.

Lemma count_hashes_app : forall n s, count_hashes (hashes n ++ s) = (n + count_hashes s)%nat.
Proof. induction n as [|n IH]; intros s; [reflexivity|]. cbn [hashes repeat app]. now rewrite count_hashes_hash, IH. Qed.

Lemma count_hashes_quote : forall s t, count_hashes (s ++ 34%N :: t) = count_hashes s.
Proof.
  induction s as [|b s IH]; intros t; cbn [app]; [reflexivity|]. destruct (N.eq_dec b 35) as [->|Hn].
  - now rewrite !count_hashes_hash, IH.
  - now rewrite !count_hashes_other.
Qed.

Lemma count_hashes_le : forall s, (count_hashes s <= length s)%nat.
Proof.
  induction s as [|b s IH]; [cbn; lia|]. destruct (N.eq_dec b 35) as [->|Hn].
  - rewrite count_hashes_hash. cbn [length]. lia.
  - rewrite count_hashes_other by assumption. lia.
Qed.

Lemma firstn_count_hashes : forall s, firstn (count_hashes s) s = hashes (count_hashes s).
Proof.
  induction s as [|b s IH]; [reflexivity|]. destruct (N.eq_dec b 35) as [->|Hn].
  - rewrite count_hashes_hash. cbn [firstn hashes repeat]. now f_equal.
  - now rewrite count_hashes_other.
Qed.

Lemma skipn_hashes : forall n s, skipn n (hashes n ++ s) = s.
Proof. induction n as [|n IH]; intros s; [reflexivity|]. apply IH. Qed.

Lemma utf8_chars_skip_hashes : forall s, utf8_chars s -> utf8_chars (skipn (count_hashes s) s).
Proof.
  induction s as [|b s IH]; intros H; [exact H|]. destruct (N.eq_dec b 35) as [->|Hn].
  - rewrite count_hashes_hash. apply IH. inversion H; subst; (assumption || lia).
  - now rewrite count_hashes_other.
Qed.

Lemma utf8_chars_inv : forall body, utf8_chars body ->
  body = [] \/
  exists c s, body = c ++ s /\ c <> [] /\ utf8_chars s /\ forall t, next_char (c ++ t) = Some (c, t).
Proof.
  intros body [|b s Hb Hs|b c1 s Hb H1 Hs|b c1 c2 s Hb H1 H2 Hs|b c1 c2 c3 s Hb H1 H2 H3 Hs]; [now left|right..];
    [exists [b], s|exists [b; c1], s|exists [b; c1; c2], s|exists [b; c1; c2; c3], s];
    (repeat split; [discriminate|assumption|]); intros t; unfold next_char; cbn [app];
    destruct (char_len_cases b) as [[[? ->]|[? ->]]|[[? ->]|[? ->]]]; (reflexivity || lia).
Qed.

Lemma raw_go_step : forall f n s c r pre, next_char s = Some (c, r) -> c <> [34%N] ->
  raw_go (S f) n s pre = raw_go f n r (pre ++ c).
Proof.
  intros f n s c r pre H Hc. cbn [raw_go]. rewrite H. destruct c as [|x tl]; [reflexivity|].
  by_bits_default x. now destruct tl.
Qed.

Lemma raw_go_quote : forall f n r pre,
  raw_go (S f) n (34%N :: r) pre =
  if Nat.leb n (count_hashes r) then Some (pre, skipn n r)
  else raw_go f n (skipn (count_hashes r) r) (pre ++ [34%N] ++ firstn (count_hashes r) r).
Proof. reflexivity. Qed.

Lemma raw_go_print : forall n rest fuel body pre,
  (length body < fuel)%nat -> utf8_chars body -> no_early_close n body ->
  raw_go fuel n (body ++ 34%N :: hashes n ++ rest) pre = Some (pre ++ body, rest).
Proof.
  intros n rest. induction fuel as [|f IH]; intros body pre Hf Hu Hc; [lia|].
  destruct (utf8_chars_inv body Hu) as [->|(c & s & -> & Hne & Hs & Hnext)].
  - cbn [app]. rewrite raw_go_quote, count_hashes_app, (proj2 (Nat.leb_le _ _)), skipn_hashes, app_nil_r by lia.
    reflexivity.
  - rewrite app_length in Hf. assert (1 <= length c)%nat by (destruct c; [contradiction|cbn; lia]).
    destruct (list_eq_dec N.eq_dec c [34%N]) as [->|Hq].
    + (* a quote inside the body, followed by fewer than n hashes, which the loop skips at once *)
      cbn [app]. rewrite raw_go_quote, count_hashes_quote.
      pose proof (Hc [] s eq_refl) as Hlt. rewrite <- count_hashes_leading in Hlt.
      pose proof (count_hashes_le s) as Hle.
      rewrite (proj2 (Nat.leb_gt _ _)), skipn_app, firstn_app by lia.
      replace (count_hashes s - length s)%nat with O by lia. cbn [skipn firstn]. rewrite app_nil_r, IH.
      * now rewrite <- !app_assoc, firstn_skipn.
      * rewrite skipn_length. lia.
      * now apply utf8_chars_skip_hashes.
      * intros p q E. apply (Hc (34%N :: firstn (count_hashes s) s ++ p) q).
        cbn [app]. now rewrite <- app_assoc, <- E, firstn_skipn.
    + rewrite <- app_assoc, (raw_go_step f n _ c _ pre (Hnext _) Hq), IH; [now rewrite <- app_assoc|lia|assumption|].
      intros p q E. apply (Hc (c ++ p) q). now rewrite E, <- app_assoc.
Qed.

Theorem raw_body_lex : forall n body rest, (n <= 255)%nat -> utf8_chars body -> no_early_close n body ->
  lex_raw_string_as_str (hashes n ++ 34%N :: body ++ 34%N :: hashes n ++ rest) = LOk (body, N.of_nat n) rest.
Proof.
  intros n body rest Hn Hu Hc. unfold lex_raw_string_as_str.
  rewrite count_hashes_app, count_hashes_other, Nat.add_0_r, (proj2 (Nat.ltb_ge _ _)), skipn_hashes by (lia || discriminate).
  rewrite raw_go_print; [reflexivity| |assumption..]. rewrite app_length. lia.
Qed.

Theorem raw_too_many_hashes : forall input, (255 < count_hashes input)%nat ->
  lex_raw_string_as_str input = LErr EInvalidRawStringHashCount input (length input).
Proof. intros input H. unfold lex_raw_string_as_str. now rewrite (proj2 (Nat.ltb_lt _ _)). Qed.
