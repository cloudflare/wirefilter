(* C07, part 2: aliases and white space at the level of the parser model.
   Each alias pair of the property text is mapped to one constructor by the
   operator tables; white space (spaces and line breaks) before a token is
   invisible to [skip_space]; the parser functions that consume an operator
   token give a result that depends neither on the spelling chosen nor on the
   white space around it. *)
From Coq Require Import List NArith String Lia.
From WF Require Import Base.Bytes Lang.Types Lang.Ast Parse.Lex Sem.Compile Parse.Parser Spec.C07
     Proofs.ParserCases Proofs.ParserClosed.
Import ListNotations.
Local Open Scope N_scope.
Local Notation length := List.length (only parsing).

Lemma space_cases b : is_space b = true <-> b = 32 \/ b = 13 \/ b = 10.
Proof. unfold is_space. lia. Qed.

Theorem skip_space_ws ws x : layout_ws ws -> skip_space (ws ++ x) = skip_space x.
Proof.
  intro H. induction H as [|c r Hc Hr IH]; [reflexivity|].
  cbn [app skip_space]. now rewrite (proj2 (space_cases c) Hc).
Qed.

Theorem skip_space_idem x : skip_space (skip_space x) = skip_space x.
Proof.
  induction x as [|c r IH]; [reflexivity|]. cbn [skip_space].
  destruct (is_space c) eqn:E; [exact IH|]. cbn [skip_space]. now rewrite E.
Qed.

(* what is left starts with a character that is not white space *)
Theorem skip_space_stops x : match skip_space x with [] => True | c :: _ => is_space c = false end.
Proof.
  induction x as [|c r IH]; [exact I|]. cbn [skip_space].
  destruct (is_space c) eqn:E; [exact IH|exact E].
Qed.

(* skip_space removes exactly a prefix of layout white space *)
Theorem skip_space_prefix x : exists ws, layout_ws ws /\ x = ws ++ skip_space x.
Proof.
  induction x as [|c r (ws & Hws & IH)]; [exists []; split; [constructor|reflexivity]|].
  cbn [skip_space]. destruct (is_space c) eqn:E.
  - exists (c :: ws). split; [|cbn; now rewrite <- IH].
    constructor; [now apply space_cases|exact Hws].
  - exists []. split; [constructor|reflexivity].
Qed.

Lemma layout_ws_app a c : layout_ws a -> layout_ws c -> layout_ws (a ++ c).
Proof. intros Ha Hc. apply Forall_app. now split. Qed.

(* two texts that differ only in the white space before a token look the same *)
Corollary skip_space_layout ws1 ws2 x :
  layout_ws ws1 -> layout_ws ws2 -> skip_space (ws1 ++ x) = skip_space (ws2 ++ x).
Proof. intros H1 H2. now rewrite !skip_space_ws. Qed.

Lemma starts_with_self p : forall r, starts_with p (p ++ r) = Some r.
Proof. induction p as [|c p IH]; intro r; cbn [starts_with app]; [reflexivity|]. now rewrite N.eqb_refl. Qed.

Theorem logical_alias_table : forall a1 a2 o r,
  In (a1, a2, o) logical_aliases ->
  lex_alts logical_ops (a1 ++ r) = Some (o, r) /\ lex_alts logical_ops (a2 ++ r) = Some (o, r).
Proof.
  intros a1 a2 o r H. cbn in H.
  destruct H as [H|[H|[H|[]]]]; injection H as <- <- <-; split; reflexivity.
Qed.

Theorem unary_alias_table : forall a1 a2 r,
  In (a1, a2) unary_aliases ->
  lex_alts unary_ops (a1 ++ r) = Some (tt, r) /\ lex_alts unary_ops (a2 ++ r) = Some (tt, r).
Proof.
  intros a1 a2 r H. cbn in H. destruct H as [H|[]]. injection H as <- <-. split; reflexivity.
Qed.

Lemma no_eq_starts r : no_eq_follows r -> starts_with [61] r = None.
Proof.
  destruct r as [|x r]; [reflexivity|]. cbn [starts_with no_eq_follows].
  destruct (N.eqb_spec 61 x) as [<-|]; [intros []|reflexivity].
Qed.

(* Either spelling [a] of a comparison operator is a token of its own and is what the table finds.  `>` and `<` are
   prefixes of `>=` and `<=`: after them the text must not go on with `=`. *)
Lemma comparison_alias_token a1 a2 c : In (a1, a2, c) comparison_aliases -> forall a, In a [a1; a2] -> forall r,
  skip_space (a ++ r) = a ++ r /\
  (no_eq_follows r \/ (a2 <> bs ">" /\ a2 <> bs "<") -> lex_alts comparison_ops (a ++ r) = Some (c, r)).
Proof.
  revert a1 a2 c.
  enough (H : Forall (fun e => forall a, In a [fst (fst e); snd (fst e)] -> forall r,
                        skip_space (a ++ r) = a ++ r /\
                        (no_eq_follows r \/ (snd (fst e) <> bs ">" /\ snd (fst e) <> bs "<") ->
                         lex_alts comparison_ops (a ++ r) = Some (snd e, r))) comparison_aliases).
  { intros a1 a2 c Hin. exact (proj1 (Forall_forall _ _) H (a1, a2, c) Hin). }
  repeat apply Forall_cons; [..|apply Forall_nil]; cbn [fst snd];
    intros a [<-|[<-|[]]] r; (split; [reflexivity|]); try reflexivity.
  all: intros [Hr|[N1 N2]]; [|now elim N1 + now elim N2].
  - change (lex_alts comparison_ops (bs ">" ++ r))
      with (match starts_with [61] r with Some rest => Some (OpOrd OGe, rest) | None => Some (OpOrd OGt, r) end).
    now rewrite (no_eq_starts r Hr).
  - change (lex_alts comparison_ops (bs "<" ++ r))
      with (match starts_with [61] r with Some rest => Some (OpOrd OLe, rest) | None => Some (OpOrd OLt, r) end).
    now rewrite (no_eq_starts r Hr).
Qed.

Theorem comparison_alias_table : forall a1 a2 c r,
  In (a1, a2, c) comparison_aliases -> no_eq_follows r ->
  lex_alts comparison_ops (a1 ++ r) = Some (c, r) /\ lex_alts comparison_ops (a2 ++ r) = Some (c, r).
Proof. intros a1 a2 c r H Hr. split; apply (comparison_alias_token a1 a2 c H); cbn; auto. Qed.

(* every spelling in the tables of the parser is one of the documented ones:
   the tables have no other entry for these constructors *)
Theorem logical_table_complete : forall t o,
  In (t, o) logical_ops -> exists a1 a2, In (a1, a2, o) logical_aliases /\ (t = a1 \/ t = a2).
Proof.
  enough (H : Forall (fun e => exists a1 a2, In (a1, a2, snd e) logical_aliases /\ (fst e = a1 \/ fst e = a2)) logical_ops).
  { intros t o Hin. exact (proj1 (Forall_forall _ _) H (t, o) Hin). }
  repeat apply Forall_cons; [..|apply Forall_nil]; cbn [fst snd]; eexists _, _;
    (split; [cbn [In logical_aliases]; auto 6|(now left) || (now right)]).
Qed.

(* LogicalExpr::lex_combining_op: white space, operator (in the spelling [a]), white space *)
Lemma combining_token a1 a2 o a ws1 ws2 r :
  In (a1, a2, o) logical_aliases -> In a [a1; a2] -> layout_ws ws1 -> layout_ws ws2 ->
  lex_combining_op (ws1 ++ a ++ ws2 ++ r) = (Some o, skip_space r).
Proof.
  intros H Ha H1 H2. unfold lex_combining_op. rewrite skip_space_ws by assumption.
  assert (E : skip_space (a ++ ws2 ++ r) = a ++ ws2 ++ r /\ lex_alts logical_ops (a ++ ws2 ++ r) = Some (o, ws2 ++ r))
    by (destruct H as [H|[H|[H|[]]]]; injection H as <- <- <-; destruct Ha as [<-|[<-|[]]]; split; reflexivity).
  destruct E as [-> ->]. now rewrite skip_space_ws.
Qed.

Theorem combining_op_layout : forall a1 a2 o ws1 ws2 r,
  In (a1, a2, o) logical_aliases -> layout_ws ws1 -> layout_ws ws2 ->
  lex_combining_op (ws1 ++ a1 ++ ws2 ++ r) = (Some o, skip_space r) /\
  lex_combining_op (ws1 ++ a2 ++ ws2 ++ r) = (Some o, skip_space r).
Proof. intros * H H1 H2. split; apply (combining_token a1 a2 o); try assumption; [left|right; left]; reflexivity. Qed.

(* no operator: the input is left as it is *)
Theorem combining_op_none x :
  lex_alts logical_ops (skip_space x) = None -> lex_combining_op x = (None, x).
Proof. intro H. unfold lex_combining_op. now rewrite H. Qed.

(* LogicalExpr::lex_simple_expr on `not` / `!`: operator, white space, operand *)
Lemma unary_token sch st f d a ws r : In a [bs "not"; bs "!"] -> layout_ws ws -> d < st_max_depth st ->
  lex_simple sch st (S f) d (a ++ ws ++ r) =
  lbind (lex_simple sch st f (d + 1) (skip_space r)) (fun arg rest1 => LOk (ENot arg) rest1).
Proof.
  intros Ha Hws Hd. rewrite lex_simple_S.
  assert (E : starts_with [40] (a ++ ws ++ r) = None /\ lex_alts unary_ops (a ++ ws ++ r) = Some (tt, ws ++ r))
    by (destruct Ha as [<-|[<-|[]]]; split; reflexivity).
  destruct E as [-> ->]. rewrite (increase_intro st d _ Hd). cbn [lbind]. now rewrite skip_space_ws.
Qed.

Theorem unary_layout : forall sch st f d a1 a2 ws r,
  In (a1, a2) unary_aliases -> layout_ws ws -> d < st_max_depth st ->
  let k := lbind (lex_simple sch st f (d + 1) (skip_space r)) (fun arg rest1 => LOk (ENot arg) rest1) in
  lex_simple sch st (S f) d (a1 ++ ws ++ r) = k /\ lex_simple sch st (S f) d (a2 ++ ws ++ r) = k.
Proof. intros * [H|[]] Hws Hd k. injection H as <- <-. split; apply unary_token; cbn; auto. Qed.

(* `(` white space expression white space `)` *)
Lemma lex_simple_paren sch st f d ws r : layout_ws ws -> d < st_max_depth st ->
  lex_simple sch st (S f) d (40 :: ws ++ r) =
  lbind (lex_logical sch st f (d + 1) (skip_space r)) (fun e rest1 =>
    lbind (expect [41] (skip_space rest1)) (fun _ rest2 => LOk (EParen e) rest2)).
Proof.
  intros Hws Hd. rewrite lex_simple_S. change (starts_with [40] (40 :: ws ++ r)) with (Some (ws ++ r)). cbv iota.
  rewrite (increase_intro st d _ Hd). cbn [lbind]. now rewrite skip_space_ws.
Qed.

Theorem paren_layout : forall sch st f d ws r,
  layout_ws ws -> d < st_max_depth st ->
  lex_simple sch st (S f) d (40 :: ws ++ r) = lex_simple sch st (S f) d (40 :: r).
Proof.
  intros sch st f d ws r Hws Hd.
  rewrite (lex_simple_paren sch st f d ws r Hws Hd). symmetry. exact (lex_simple_paren sch st f d [] r (Forall_nil _) Hd).
Qed.

(* `any` / `all`, white space, `(`, white space, the argument *)
Lemma quant_token sch st f d qsp q ws1 ws2 r :
  In (qsp, q) [(bs "any", QAny); (bs "all", QAll)] -> layout_ws ws1 -> layout_ws ws2 -> d < st_max_depth st ->
  lex_simple sch st (S f) d (qsp ++ ws1 ++ 40 :: ws2 ++ r) =
  match lex_arg sch st f (d + 1) (skip_space r) with
  | LOk a rest2 => quant_arg sch q (skip_space r) a rest2
  | LErr k a n => LErr k a n
  | LPanic => LPanic
  | LFuel => LFuel
  end.
Proof.
  intros Hq H1 H2 Hd. rewrite lex_simple_S. set (x := ws1 ++ 40 :: ws2 ++ r).
  assert (E : starts_with [40] (qsp ++ x) = None /\ lex_alts unary_ops (qsp ++ x) = None /\
              lex_alts quant_ops (qsp ++ x) = Some (q, x))
    by (destruct Hq as [Hq|[Hq|[]]]; injection Hq as <- <-; repeat split; reflexivity).
  destruct E as (-> & -> & E). unfold lex_quant_call. rewrite E. subst x. cbv iota beta.
  rewrite skip_space_ws by assumption. change (starts_with [40] (skip_space (40 :: ws2 ++ r))) with (Some (ws2 ++ r)). cbv iota.
  rewrite (increase_intro st d _ Hd). cbn [lbind]. rewrite skip_space_ws by assumption.
  change (expect [40] (skip_space (40 :: ws2 ++ r))) with (LOk tt (ws2 ++ r)). cbn [lbind]. now rewrite skip_space_ws.
Qed.

(* a character that is not white space may be preceded by white space where it is expected *)
Lemma expect_after_ws b ws r : is_space b = false -> layout_ws ws -> expect [b] (skip_space (ws ++ b :: r)) = LOk tt r.
Proof.
  intros Hb Hws. rewrite skip_space_ws by assumption. cbn [skip_space]. rewrite Hb.
  unfold expect. cbn [starts_with]. now rewrite N.eqb_refl.
Qed.

Theorem expect_close_layout : forall ws r,
  layout_ws ws -> expect [41] (skip_space (ws ++ 41 :: r)) = LOk tt r.
Proof. intros ws r. now apply expect_after_ws. Qed.

(* ComparisonExpr::lex_with_lhs: white space, operator, white space, literal.
   [prim3] = the left-hand side is Int, Bytes or Ip. *)
Definition prim3 (t : ty) : bool := match t with TInt | TBytes | TIp => true | _ => false end.

Lemma lex_with_lhs_prim3 sch st f d input lhs lt : ty_iexpr sch lhs = Some lt -> prim3 lt = true ->
  lex_with_lhs sch st (S f) d input lhs = cmp_rhs sch st lhs lt input.
Proof. intros Hty Hp. rewrite lex_with_lhs_S, Hty. destruct lt; try discriminate Hp; reflexivity. Qed.

(* a comparison is accepted only after an operator *)
Lemma lex_with_lhs_ok_alts sch st f d input lhs lt e r : ty_iexpr sch lhs = Some lt -> prim3 lt = true ->
  lex_with_lhs sch st (S f) d input lhs = LOk e r -> exists p, lex_alts comparison_ops (skip_space input) = Some p.
Proof.
  intros Hty Hp. rewrite (lex_with_lhs_prim3 sch st f d _ lhs lt Hty Hp). unfold cmp_rhs.
  destruct (lex_alts _ _) as [p|]; [eauto|discriminate].
Qed.

Lemma cmp_rhs_ws sch st lhs lt ws x : layout_ws ws -> cmp_rhs sch st lhs lt (ws ++ x) = cmp_rhs sch st lhs lt x.
Proof. intros H. unfold cmp_rhs. now rewrite skip_space_ws. Qed.

(* An operator of the alias table, in the spelling [a]: [comparison_alias_token] finds it, and what is left of
   [cmp_rhs] is the branch of that operator. *)
Lemma ordering_token sch st f d lhs lt a1 a2 o a ws1 ws2 r :
  In (a1, a2, OpOrd o) comparison_aliases -> In a [a1; a2] -> ty_iexpr sch lhs = Some lt -> prim3 lt = true ->
  layout_ws ws1 -> layout_ws ws2 -> no_eq_follows (ws2 ++ r) ->
  lex_with_lhs sch st (S f) d (ws1 ++ a ++ ws2 ++ r) lhs =
  lbind (lex_rhs lt (skip_space r)) (fun v rest => LOk (EComparison lhs (COrd o v)) rest).
Proof.
  intros H Ha Hty Hp H1 H2 Hne. rewrite (lex_with_lhs_prim3 sch st f d _ lhs lt Hty Hp), cmp_rhs_ws by assumption.
  destruct (comparison_alias_token _ _ _ H a Ha (ws2 ++ r)) as [Hs Ht].
  unfold cmp_rhs. rewrite Hs, Ht by now left. cbv iota beta.
  change (match lt with TInt | TBytes | TIp => true | _ => false end) with (prim3 lt).
  now rewrite Hp, skip_space_ws.
Qed.

Lemma band_token sch st f d lhs a1 a2 a ws1 ws2 r :
  In (a1, a2, OpBand) comparison_aliases -> In a [a1; a2] -> ty_iexpr sch lhs = Some TInt ->
  layout_ws ws1 -> layout_ws ws2 -> no_eq_follows (ws2 ++ r) \/ (a2 <> bs ">" /\ a2 <> bs "<") ->
  lex_with_lhs sch st (S f) d (ws1 ++ a ++ ws2 ++ r) lhs =
  lbind (lex_int (skip_space r)) (fun z rest => LOk (EComparison lhs (CBitAnd z)) rest).
Proof.
  intros H Ha Hty H1 H2 Hne. rewrite (lex_with_lhs_prim3 sch st f d _ lhs TInt Hty eq_refl), cmp_rhs_ws by assumption.
  destruct (comparison_alias_token _ _ _ H a Ha (ws2 ++ r)) as [Hs Ht].
  unfold cmp_rhs. rewrite Hs, Ht by assumption. cbv iota beta. now rewrite skip_space_ws.
Qed.

Theorem ordering_layout : forall sch st f d lhs lt a1 a2 o ws1 ws2 r,
  In (a1, a2, OpOrd o) comparison_aliases -> ty_iexpr sch lhs = Some lt -> prim3 lt = true ->
  layout_ws ws1 -> layout_ws ws2 -> no_eq_follows (ws2 ++ r) ->
  let k := lbind (lex_rhs lt (skip_space r)) (fun v rest => LOk (EComparison lhs (COrd o v)) rest) in
  lex_with_lhs sch st (S f) d (ws1 ++ a1 ++ ws2 ++ r) lhs = k /\
  lex_with_lhs sch st (S f) d (ws1 ++ a2 ++ ws2 ++ r) lhs = k.
Proof. intros * H Hty Hp H1 H2 Hne k. split; apply (ordering_token sch st f d lhs lt a1 a2 o); try assumption; [left|right; left]; reflexivity. Qed.

Theorem bitwise_and_layout : forall sch st f d lhs ws1 ws2 r,
  ty_iexpr sch lhs = Some TInt -> layout_ws ws1 -> layout_ws ws2 ->
  let k := lbind (lex_int (skip_space r)) (fun z rest => LOk (EComparison lhs (CBitAnd z)) rest) in
  lex_with_lhs sch st (S f) d (ws1 ++ bs "bitwise_and" ++ ws2 ++ r) lhs = k /\
  lex_with_lhs sch st (S f) d (ws1 ++ bs "&" ++ ws2 ++ r) lhs = k.
Proof.
  intros * Hty H1 H2 k.
  assert (H : In (bs "bitwise_and", bs "&", OpBand) comparison_aliases) by (do 7 right; left; reflexivity).
  split; apply (band_token sch st f d lhs _ _ _ ws1 ws2 r H); try assumption;
    [left; reflexivity|right; split; discriminate|right; left; reflexivity|right; split; discriminate].
Qed.

(* For an operator with fixed spellings the table look-up is a computation: once the white space before the
   operator is gone, each side is [cmp_rhs] on a text that begins with the operator, which evaluates. *)
Theorem matches_layout : forall sch st f d lhs ws1 ws2 r,
  ty_iexpr sch lhs = Some TBytes -> layout_ws ws1 -> layout_ws ws2 ->
  let k := lbind (lex_regex (skip_space r)) (fun p rest => LOk (EComparison lhs (CMatches (fst p) (snd p))) rest) in
  lex_with_lhs sch st (S f) d (ws1 ++ bs "matches" ++ ws2 ++ r) lhs = k /\
  lex_with_lhs sch st (S f) d (ws1 ++ bs "~" ++ ws2 ++ r) lhs = k.
Proof.
  intros sch st f d lhs ws1 ws2 r Hty H1 H2 k. subst k. rewrite <- (skip_space_ws ws2 r H2).
  rewrite !(lex_with_lhs_prim3 sch st f d _ lhs TBytes Hty eq_refl), !(cmp_rhs_ws sch st lhs TBytes ws1) by assumption.
  split; reflexivity.
Qed.

Theorem contains_layout sch st f d lhs ws1 ws2 r : ty_iexpr sch lhs = Some TBytes -> layout_ws ws1 -> layout_ws ws2 ->
  lex_with_lhs sch st (S f) d (ws1 ++ bs "contains" ++ ws2 ++ r) lhs =
  lbind (lex_bytes (skip_space r)) (fun p rest => LOk (EComparison lhs (CContains (fst p) (snd p))) rest).
Proof.
  intros Hty H1 H2. rewrite <- (skip_space_ws ws2 r H2).
  rewrite (lex_with_lhs_prim3 sch st f d _ lhs TBytes Hty eq_refl), cmp_rhs_ws by assumption. reflexivity.
Qed.

Theorem in_layout sch st f d lhs lt ws1 ws2 r : ty_iexpr sch lhs = Some lt -> prim3 lt = true -> layout_ws ws1 -> layout_ws ws2 ->
  lex_with_lhs sch st (S f) d (ws1 ++ bs "in" ++ ws2 ++ r) lhs =
  match starts_with [36] (skip_space r) with
  | Some _ => lbind (lex_list_name (skip_space r)) (fun name rest =>
                match list_index sch lt with
                | Some li => LOk (EComparison lhs (CInList li name)) rest
                | None => LErr EUnsupportedOp (bs "in" ++ ws2 ++ r) (span_len (bs "in" ++ ws2 ++ r) rest)
                end)
  | None =>
      match lt with
      | TInt => lbind (lex_brace_list lex_int_range (skip_space r)) (fun l rest => LOk (EComparison lhs (COneOfInt l)) rest)
      | TIp => lbind (lex_brace_list lex_ip_range (skip_space r)) (fun l rest => LOk (EComparison lhs (COneOfIp l)) rest)
      | _ => lbind (lex_brace_list lex_bytes (skip_space r)) (fun l rest => LOk (EComparison lhs (COneOfBytes l)) rest)
      end
  end.
Proof.
  intros Hty Hp H1 H2. rewrite <- (skip_space_ws ws2 r H2).
  rewrite (lex_with_lhs_prim3 sch st f d _ lhs lt Hty Hp), cmp_rhs_ws by assumption.
  destruct lt; try discriminate Hp; reflexivity.
Qed.

(* the white space between the items of a `{ ... }` list is invisible *)
Theorem brace_items_layout {A} : forall fuel (lex1 : bytes -> lres A) ws x acc,
  layout_ws ws -> brace_items fuel lex1 (ws ++ x) acc = brace_items fuel lex1 x acc.
Proof.
  intros fuel lex1 ws x acc Hws. destruct fuel as [|f]; [reflexivity|].
  cbn [brace_items]. now rewrite skip_space_ws.
Qed.

(* `[` white space index white space `]`: both skips of IndexExpr::lex_with *)
Theorem index_layout : forall ws1 ws2 y r,
  layout_ws ws1 -> layout_ws ws2 ->
  lex_field_index (skip_space (ws1 ++ y)) = lex_field_index (skip_space y) /\
  expect [93] (skip_space (ws2 ++ 93 :: r)) = LOk tt r.
Proof.
  intros ws1 ws2 y r H1 H2. split; [now rewrite skip_space_ws|now apply expect_after_ws].
Qed.

(* a step function that drops one white-space character from the front *)
Definition ws_step (step : bytes -> option bytes) : Prop :=
  (forall c r, is_ws_ascii c = true -> step (c :: r) = Some r) /\
  (forall x r, step x = Some r -> (List.length r < List.length x)%nat) /\
  (forall x r y, step x = Some r -> step (x ++ y) = Some (r ++ y)) /\
  (forall x ws, step x = None -> x <> [] -> layout_ws ws -> step (x ++ ws) = None).

Lemma dws_fuel step : ws_step step -> forall n m x,
  (List.length x <= n)%nat -> (List.length x <= m)%nat -> drop_while_some step n x = drop_while_some step m x.
Proof.
  intros (_ & Hsh & _ & _).
  assert (E0 : step [] = None) by (destruct (step []) as [r|] eqn:E; [apply Hsh in E; cbn in E; lia|reflexivity]).
  induction n as [|n IH]; intros m x Hn Hm.
  - destruct x; [|cbn in Hn; lia]. destruct m; cbn [drop_while_some]; [reflexivity|now rewrite E0].
  - destruct m as [|m].
    + destruct x; [|cbn in Hm; lia]. cbn [drop_while_some]. now rewrite E0.
    + cbn [drop_while_some]. destruct (step x) as [r|] eqn:E; [|reflexivity].
      pose proof (Hsh _ _ E). apply IH; lia.
Qed.

Lemma dws_ws step ws x : ws_step step -> layout_ws ws ->
  drop_while_some step (List.length (ws ++ x)) (ws ++ x) = drop_while_some step (List.length x) x.
Proof.
  intros Hst H. induction H as [|c r Hc Hr IH]; [reflexivity|].
  cbn [app List.length drop_while_some]. rewrite (proj1 Hst c (r ++ x)) by (destruct Hc as [->|[->| ->]]; reflexivity). exact IH.
Qed.

Lemma dws_app step : ws_step step -> forall n x ws, layout_ws ws -> (List.length x <= n)%nat ->
  drop_while_some step (List.length (x ++ ws)) (x ++ ws) =
  match drop_while_some step n x with [] => [] | y => y ++ ws end.
Proof.
  intros Hst. pose proof Hst as (_ & Hsh & Happ & Hnone).
  induction n as [|n IH]; intros x ws Hws Hn.
  - destruct x; [|cbn in Hn; lia]. cbn [app drop_while_some].
    rewrite <- (app_nil_r ws) at 1 2. rewrite (dws_ws step ws [] Hst Hws). reflexivity.
  - cbn [drop_while_some]. destruct (step x) as [r|] eqn:E.
    + pose proof (Hsh _ _ E) as Hl. rewrite <- (IH r ws Hws ltac:(lia)).
      destruct (List.length (x ++ ws)) as [|k] eqn:Ek; [rewrite app_length in Ek; lia|].
      cbn [drop_while_some]. rewrite (Happ _ _ ws E).
      apply (dws_fuel step Hst); rewrite !app_length in *; lia.
    + destruct x as [|c x'].
      * cbn [app]. rewrite <- (app_nil_r ws) at 1 2. rewrite (dws_ws step ws [] Hst Hws). reflexivity.
      * destruct (List.length ((c :: x') ++ ws)) as [|k] eqn:Ek; [cbn in Ek; lia|].
        cbn [drop_while_some]. rewrite (Hnone _ ws E ltac:(discriminate) Hws). reflexivity.
Qed.

Lemma ws_step_ext step step' : (forall x, step x = step' x) -> ws_step step' -> ws_step step.
Proof.
  intros E (H1 & H2 & H3 & H4). repeat split; intros *; rewrite !E; auto.
Qed.

(* the last byte a two- or three-byte test looks at must rule out the layout characters, all below 128 *)
Lemma step3_ws_step t2 t3 :
  (forall b w, w < 128 -> t2 b w = false) -> (forall b c w, w < 128 -> t3 b c w = false) ->
  ws_step (step3 t2 t3).
Proof.
  intros H2 H3. split; [|split; [|split]].
  - intros c r H. cbn. now rewrite H.
  - intros x r H. destruct x as [|b [|c [|d r3]]]; cbn [step3] in H; try discriminate H;
      repeat match type of H with (if ?c then _ else _) = _ => destruct c; try discriminate H end;
      injection H as <-; cbn [List.length]; lia.
  - intros x r y H. destruct x as [|b [|c [|d r3]]]; cbn [step3 app] in H |- *; try discriminate H;
      repeat match type of H with (if ?c then _ else _) = _ => destruct c; try discriminate H end;
      now injection H as <-.
  - intros x ws H Hne Hws.
    assert (Hsmall : forall c, In c ws -> c < 128).
    { intros c Hc. unfold layout_ws in Hws. rewrite Forall_forall in Hws. destruct (Hws c Hc) as [->|[->| ->]]; reflexivity. }
    destruct x as [|b [|c [|d r3]]]; [contradiction| | |]; cbn [step3 app] in H |- *.
    + destruct (is_ws_ascii b); [discriminate H|]. destruct ws as [|w1 [|w2 ws']]; [reflexivity| |].
      * now rewrite H2 by (apply Hsmall; now left).
      * now rewrite H2, H3 by (apply Hsmall; cbn; auto).
    + destruct (is_ws_ascii b); [discriminate H|]. destruct (t2 b c); [discriminate H|].
      destruct ws as [|w1 ws']; [reflexivity|]. now rewrite H3 by (apply Hsmall; now left).
    + revert H. repeat match goal with |- (if ?c then _ else _) = _ -> _ => destruct c; try discriminate end. reflexivity.
Qed.

(* every byte of a three-byte white-space character is 128 or more *)
Lemma ws3_ascii b c d : b < 128 \/ d < 128 -> ws3 b c d = false.
Proof. unfold ws3. lia. Qed.

Lemma ws_prefix_step : ws_step ws_prefix.
Proof. eapply ws_step_ext; [exact ws_prefix_step3|]. apply step3_ws_step; intros; [lia|apply ws3_ascii; auto]. Qed.

Lemma ws_suffix_rev_step : ws_step ws_suffix_rev.
Proof. eapply ws_step_ext; [exact ws_suffix_rev_step3|]. apply step3_ws_step; intros; [lia|apply ws3_ascii; auto]. Qed.

(* nor is an ASCII byte other than white space removed: every test past the first asks for a byte of 128 or more *)
Lemma step3_ascii t2 t3 b r : is_ws_ascii b = false -> (forall c, t2 b c = false) -> (forall c d, t3 b c d = false) ->
  step3 t2 t3 (b :: r) = None.
Proof. intros Hw H2 H3. cbn [step3]. rewrite Hw. destruct r as [|c [|d r]]; rewrite ?H2, ?H3; reflexivity. Qed.

Lemma ws_prefix_ascii b r : b < 128 -> is_ws_ascii b = false -> ws_prefix (b :: r) = None.
Proof. intros Hb Hw. rewrite ws_prefix_step3. apply (step3_ascii _ _ b r Hw); intros; [lia|apply ws3_ascii; auto]. Qed.

Lemma ws_suffix_ascii d r : d < 128 -> is_ws_ascii d = false -> ws_suffix_rev (d :: r) = None.
Proof. intros Hb Hw. rewrite ws_suffix_rev_step3. apply (step3_ascii _ _ d r Hw); intros; [lia|apply ws3_ascii; auto]. Qed.

Lemma trim_start_ws ws x : layout_ws ws -> trim_start (ws ++ x) = trim_start x.
Proof. intros H. unfold trim_start. now apply dws_ws; [apply ws_prefix_step|]. Qed.

(* the whole filter: leading and trailing white space is trimmed (str::trim, Unicode White_Space) *)
Theorem trim_layout ws1 ws2 x : layout_ws ws1 -> layout_ws ws2 -> trim (ws1 ++ x ++ ws2) = trim x.
Proof.
  intros H1 H2. unfold trim. cbv zeta. rewrite trim_start_ws by assumption.
  unfold trim_start at 1 2. rewrite (dws_app ws_prefix ws_prefix_step (List.length x) x ws2 H2 (le_n _)).
  fold (trim_start x). destruct (trim_start x) as [|c y] eqn:E; [reflexivity|].
  f_equal. rewrite rev_app_distr.
  rewrite (dws_fuel ws_suffix_rev ws_suffix_rev_step _ (List.length (rev ws2 ++ rev (c :: y))) (rev ws2 ++ rev (c :: y)))
    by (rewrite !app_length, !rev_length; cbn [List.length]; lia).
  rewrite (dws_ws ws_suffix_rev (rev ws2) (rev (c :: y)) ws_suffix_rev_step (Forall_rev H2)).
  apply (dws_fuel ws_suffix_rev ws_suffix_rev_step); rewrite rev_length; lia.
Qed.

Theorem parse_filter_outer_layout sch st ws1 ws2 x :
  layout_ws ws1 -> layout_ws ws2 -> parse_filter sch st (ws1 ++ x ++ ws2) = parse_filter sch st x.
Proof. intros H1 H2. unfold parse_filter. now rewrite trim_layout. Qed.
