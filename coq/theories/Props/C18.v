(* C18 - Compiled filters are deterministic and safe to execute concurrently.
   Property theorems only.  PARTIAL: the theorems decide the logic of sharing
   for the model; thread interleavings of the real machine code, data races,
   Send/Sync and the memory model are explored by harness/src/c18.rs
   (barrier-released threads, fresh-process first-use races), not proved.

   INVENTORY of shared or global mutable state reachable from
   FilterAst::compile / Filter::execute (grep of /repo/engine/src for static,
   LazyLock/OnceLock/OnceCell/lazy_static, thread_local!, Cell/RefCell/Mutex/
   RwLock/atomics, Pool, unsafe impl Send/Sync; and of the crates called):

   engine/src
   | what                                         | caches / holds                 | initialised                    | can it influence a result?                       |
   | static USE_AVX2: LazyLock<bool>              | env WIREFILTER_USE_AVX2 + CPU  | first compile of `contains`    | selects Avx2Searcher vs memmem: both = substring  |
   |   (ast/field_expr.rs:29)                     | feature bit                    | with a needle >= 2 bytes       | search (C10 avx2_switch_irrelevant); cell G1 here |
   | static USE_SIMD128 (wasm32 only)             | same for wasm                  | same                           | not compiled on x86_64                            |
   | rand::rng() in the Contains arm              | thread_local ThreadRng         | first draw on each thread,     | anchor position of the AVX2 searcher, a new draw  |
   |   (field_expr.rs:610)                        | (Rc<UnsafeCell<ReseedingRng>>) | seeded from the OS             | per compile: irrelevant (C10 anchor_irrelevant);  |
   |                                              |                                |                                | knob K here                                       |
   | verif::ANCHOR_OVERRIDE (thread_local Cell)   | hook, cfg(wirefilter_verif)    | const                          | only forces the anchor on the calling thread      |
   | panic.rs: 4 thread_local Cell/RefCell,       | panic catcher state            | const / Once                   | not touched by compile/execute (C19's subject)    |
   |   static PANIC_CATCHER_HOOK_ONCE: Once       |                                |                                |                                                   |
   | functions/concat.rs static CONCAT_FN (test), | immutable values               | const                          | no                                                |
   |   LazyLock<Scheme> in #[cfg(test)] modules   |                                |                                |                                                   |
   | Scheme = Arc<SchemeBuilder> (FnvBuildHasher) | immutable after build();       | -                              | no (compared by pointer in execute)               |
   | Filter / CompiledExpr                        | Box<dyn Fn + Sync + Send>      | compile                        | closures capture owned immutable data only; no    |
   |                                              |                                |                                | Cell/RefCell/Mutex/atomic/unsafe impl in engine   |
   | ExecutionContext                             | values, Box<dyn ListMatcher>   | caller                         | execute takes &ctx; ListMatcher: Send + Sync,     |
   |                                              |                                |                                | match_value(&self)                                |
   | ffi LAST_ERROR (thread_local RefCell)        | C API error text               | const                          | per thread (C20's subject)                        |
   third-party code behind the API
   | regex_automata::meta::Regex.pool: Pool<Cache>| PikeVM/backtrack/lazy-DFA      | per compiled regex; first      | scratch + memo of pure transitions: must not;     |
   |   (util/pool.rs: owner AtomicUsize, sharded  | scratch, one per concurrent    | is_match makes the calling     | pools P here (take / run / put, validity          |
   |   Mutex<Vec<Box<Cache>>>, unsafe impl Sync,  | caller                         | thread the owner (CAS)         | invariant); the real pool is only explored        |
   |   static COUNTER, thread_local THREAD_ID)    |                                |                                |                                                   |
   | memchr: static FN: AtomicPtr (ifunc) per     | chosen avx2/sse2/fallback      | first call, racy by design     | all implementations compute the same function;    |
   |   search routine; memmem::Finder prefilter   | routine                        | (every racer stores the same   | cell G2 here                                      |
   | std_detect cache (is_x86_feature_detected!)  | CPUID bits (atomics)           | pointer / bits)                | same                                              |
   | sliceslice Avx2Searcher, wildcard::Wildcard  | immutable after construction   | compile / parse                | no                                                |

   The theorems:
   (a) C18_schedule_independent_partial: for EVERY engine whose hidden state
       satisfies [engine_ok] (deterministic initialisers, scratch validity
       invariant, knob-independent results) and EVERY schedule (any number of
       threads, any number of steps, arbitrary interleaving of the atomic
       steps: look at a cell / publish a value / take a scratch and run / put
       it back), each thread's log is the sequential log of what it completed;
       after a complete run the globals are the single-threaded values.
       Instances: whole compiled filters (closures produced by ONE
       compile_lexpr each, shared by all threads) and the leaf matchers with
       USE_AVX2 latch, memchr function pointer, random anchor and regex cache
       made explicit.
   (b) compile is a function: recompilations agree (theorems C18_recompilation_agrees, C18_leaf_recompilation_agrees).
   (c) the hypotheses are needed: with a thread-dependent initialiser or a
       cache shared between patterns some schedule changes an observation
       (vm_compute witnesses).  These are NOT findings about wirefilter: they
       are the two designs the mutation tests plant in the real code. *)
From Coq Require Import List NArith Arith Bool.
From WF Require Import Base.Bytes Lang.Types Lang.Ast Lang.Context Sem.Matchers Sem.Compile Sem.Searcher
     Spec.Denote Spec.Typing Proofs.CallProofs Sem.Shared Spec.C18 Proofs.SharedProofs.
Import ListNotations.
Open Scope nat_scope.

Theorem C18_schedule_independent_partial :
  forall (F C K Sc R V : Type) (E : engine F C K Sc R V) (seq_result : F -> C -> R)
         (v0 : nat -> V) (Inv : nat -> Sc -> Prop),
    engine_ok E seq_result v0 Inv ->
    forall (progs : nat -> list op) (ks : nat -> list K) (sched : list nat),
      let m := run_sched E sched (start progs ks) in
      observes_sequential E seq_result progs m /\
      (finished m ->
       (forall t, log (threads m t) = seq_log E seq_result (progs t)) /\
       cells_final E v0 progs m).
Proof. exact (@machine_schedule_independent). Qed.

Theorem C18_two_schedules_agree_partial :
  forall (F C K Sc R V : Type) (E : engine F C K Sc R V) (seq_result : F -> C -> R)
         (v0 : nat -> V) (Inv : nat -> Sc -> Prop),
    engine_ok E seq_result v0 Inv ->
    forall progs ks1 ks2 s1 s2,
      let m1 := run_sched E s1 (start progs ks1) in
      let m2 := run_sched E s2 (start progs ks2) in
      finished m1 -> finished m2 ->
      (forall t, log (threads m1 t) = log (threads m2 t)) /\
      (forall c, cells (glob m1) c = cells (glob m2) c).
Proof. exact (@machine_two_schedules). Qed.

(* whole filters: compiled once, shared, executed and recompiled by any
   number of threads on shared or distinct contexts *)
Theorem C18_filters_schedule_independent_partial : forall sch es cs,
  schedule_independent (filter_engine sch es cs) closure_run (fun _ => tt).
Proof. intros sch es cs. exact (machine_schedule_independent _ _ _ _ (filter_engine_ok sch es cs)). Qed.

(* ... and what every call returns is run_filter, i.e. for a well-typed filter
   on a well-formed context the denotation of the language *)
Theorem C18_filter_calls_return_denotation : forall sch es cs o e c,
  nth_error es (op_fid o) = Some e -> nth_error cs (op_cid o) = Some c ->
  wt_filter sch e = true -> ctx_ok sch c = true -> fns_ok sch ->
  exists b, seq_obs (filter_engine sch es cs) closure_run o = Some (Some b) /\
            denote_filter sch e c = Some b.
Proof. exact filter_engine_obs_denote. Qed.

(* leaf matchers with their hidden state explicit *)
Theorem C18_leaf_engine_ok : forall env fs hs,
  engine_ok (leaf_engine env fs hs) leaf_seq (leaf_v0 env) (leaf_inv fs).
Proof. exact leaf_engine_ok. Qed.

Theorem C18_leaves_schedule_independent_partial : forall env fs hs,
  schedule_independent (leaf_engine env fs hs) leaf_seq (leaf_v0 env).
Proof. intros env fs hs. exact (machine_schedule_independent _ _ _ _ (leaf_engine_ok env fs hs)). Qed.

(* two compilations of one filter are closures that agree on every context,
   with each other and with compile-then-execute in one go *)
Theorem C18_recompilation_agrees : forall sch e f1 f2,
  f1 = compile_lexpr sch e -> f2 = compile_lexpr sch e ->
  forall c, closure_run f1 c = closure_run f2 c /\ closure_run f1 c = run_filter sch e c.
Proof. intros sch e f1 f2 -> -> c. split; [reflexivity | apply closure_run_is_run_filter]. Qed.

(* the same leaf compiled in two processes with different CPUs / settings, with
   two anchors and two valid caches: same answer *)
Theorem C18_leaf_recompilation_agrees : forall f hay view1 view2 k1 k2 s1 s2,
  (forall r, f = LMatches r -> cache_valid r s1 /\ cache_valid r s2) ->
  fst (leaf_run view1 k1 s1 f hay) = fst (leaf_run view2 k2 s2 f hay).
Proof.
  intros f hay view1 view2 k1 k2 s1 s2 Hs. destruct f as [needle | r].
  - rewrite !leaf_contains_spec. reflexivity.
  - destruct (Hs r eq_refl) as [H1 H2].
    destruct (leaf_matches_spec view1 k1 s1 r hay H1) as [-> _].
    destruct (leaf_matches_spec view2 k2 s2 r hay H2) as [-> _]. reflexivity.
Qed.

Definition C18_full : Prop := Spec.C18.C18_full.

(* sequential correctness alone does not give the property *)
Theorem C18_sequential_correctness_is_not_enough_refuted : ~ C18_full.
Proof. exact full_refuted. Qed.

Theorem C18_thread_dependent_initialiser_refuted :
  exists (progs : nat -> list op) (s1 s2 : list nat),
    let m1 := run_sched bad_init_engine s1 (start progs (fun _ => [])) in
    let m2 := run_sched bad_init_engine s2 (start progs (fun _ => [])) in
    finished m1 /\ finished m2 /\ log (threads m1 0) <> log (threads m2 0).
Proof.
  exists bad_init_progs, bad_init_sched_race, bad_init_sched_seq.
  destruct bad_init_race_observed as [F1 L1]. destruct bad_init_seq_observed as [F2 L2].
  split; [exact F1|]. split; [exact F2|]. rewrite L1, L2. discriminate.
Qed.

Theorem C18_cache_shared_between_patterns_refuted :
  sequentially_correct bad_cache_E leaf_seq /\
  let m1 := run_sched bad_cache_E sched_0_then_1 (start bad_cache_progs (fun _ => [])) in
  let m2 := run_sched bad_cache_E sched_1_then_0 (start bad_cache_progs (fun _ => [])) in
  finished m1 /\ finished m2 /\
  log (threads m1 1) <> log (threads m2 1) /\ log (threads m1 0) <> log (threads m2 0).
Proof.
  split; [exact bad_cache_sequentially_correct|].
  destruct bad_cache_observed as (F1 & F2 & A & B & C & D & _).
  split; [exact F1|]. split; [exact F2|]. rewrite A, B, C, D. split; discriminate.
Qed.

(* both threads find the USE_AVX2 cell empty and compute it; thread 1
   publishes, thread 0's value is dropped *)
Example C18_race_is_exercised :
  let m := run_sched (demo_E true) [0; 0; 1; 1] (start demo_progs (fun t => [t + 5])) in
  ph (threads m 0) = PPublish CELL_AVX2 1 [CELL_MEMCHR] /\
  ph (threads m 1) = PPublish CELL_AVX2 1 [CELL_MEMCHR] /\
  cells (glob m) CELL_AVX2 = None /\
  cells (glob (step (demo_E true) (step (demo_E true) m 1) 0)) CELL_AVX2 = Some 1.
Proof. vm_compute. repeat split. Qed.

(* the complete run: contains through the AVX2 searcher with two anchors,
   a cached regex used by both threads, memchr; everything as sequentially *)
Example C18_demo_complete :
  let m := run_sched (demo_E true) demo_sched (start demo_progs (fun t => [t + 5])) in
  finished m /\
  log (threads m 0) = [(Exec 0 0, Some (Some true)); (Exec 1 0, Some (Some true));
                       (Recompile 0 1, Some (Some false)); (Exec 2 0, Some (Some true))] /\
  log (threads m 1) = [(Exec 0 0, Some (Some true)); (Exec 1 0, Some (Some true));
                       (Recompile 0 0, Some (Some true)); (Exec 1 1, Some (Some false))] /\
  length (pools (glob m) 1) = 2.
Proof.
  split; [intros [|[|t]]; vm_compute; reflexivity|]. vm_compute. repeat split.
Qed.

(* a process without AVX2 observes the same *)
Example C18_demo_other_process :
  let m1 := run_sched (demo_E true) demo_sched (start demo_progs (fun t => [t + 5])) in
  let m2 := run_sched (demo_E false) (sequential (demo_E false) 2 demo_progs) (start demo_progs (fun _ => [])) in
  log (threads m1 0) = log (threads m2 0) /\ log (threads m1 1) = log (threads m2 1) /\
  cells (glob m1) CELL_AVX2 = Some 1 /\ cells (glob m2) CELL_AVX2 = Some 0.
Proof. vm_compute. repeat split. Qed.

Example C18_engine_ok_satisfiable :
  engine_ok (demo_E true) leaf_seq (leaf_v0 {| env_avx2 := true; env_memchr := 2 |})
            (leaf_inv [(LContains [108; 108; 111]%N, 0); (LMatches (RSeq (RLit 108) (RLit 111)), 0);
                       (LContains [111]%N, 0)]).
Proof. apply leaf_engine_ok. Qed.

Check C18_schedule_independent_partial :
  forall (F C K Sc R V : Type) (E : engine F C K Sc R V) (seq_result : F -> C -> R)
         (v0 : nat -> V) (Inv : nat -> Sc -> Prop),
    engine_ok E seq_result v0 Inv ->
    forall (progs : nat -> list op) (ks : nat -> list K) (sched : list nat),
      let m := run_sched E sched (start progs ks) in
      observes_sequential E seq_result progs m /\
      (finished m ->
       (forall t, log (threads m t) = seq_log E seq_result (progs t)) /\
       cells_final E v0 progs m).
Check C18_filters_schedule_independent_partial : forall sch es cs,
  schedule_independent (filter_engine sch es cs) closure_run (fun _ => tt).
Check C18_leaves_schedule_independent_partial : forall env fs hs,
  schedule_independent (leaf_engine env fs hs) leaf_seq (leaf_v0 env).
Check C18_recompilation_agrees : forall sch e f1 f2,
  f1 = compile_lexpr sch e -> f2 = compile_lexpr sch e ->
  forall c, closure_run f1 c = closure_run f2 c /\ closure_run f1 c = run_filter sch e c.
Check C18_sequential_correctness_is_not_enough_refuted : ~ C18_full.
