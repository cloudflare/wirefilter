(* C19 — The panic catcher returns results or panic text and never leaks state.
   Only the property theorems, each a lemma of Proofs/PanicProofs.v or a few
   lines away from one (the witnesses of the installation race by evaluation);
   all for programs of any size and nesting (induction over program trees in
   Proofs/PanicProofs.v). *)
From Coq Require Import List NArith Bool.
From WF Require Import Sem.Panic Spec.C19 Proofs.PanicProofs.
Import ListNotations.
Open Scope N_scope.

(* (a) level_balanced: whatever a program does (enable, disable, nested
   catch_panic, panics caught or escaping), the nesting level after it is the
   level before it, on the returning and on the panicking path, from any start
   level and any hook state; only process::abort() is excluded. *)
Theorem C19_level_balanced : forall p g ts ev o ts' g',
  run_prog g ts p = (ev, o, ts', g') -> not_aborted o -> level ts' = level ts.
Proof. exact run_prog_level. Qed.

Theorem C19_level_balanced_step : forall s g ts ev o ts' g',
  run_step g ts s = (ev, o, ts', g') -> not_aborted o -> level ts' = level ts.
Proof. intros s g ts ev o ts' g' H. apply (run_step_keeps H). Qed.

(* (b) catch_result_spec: with our hook current and catching enabled,
   catch_panic(p) returns Ok when p returns and otherwise Err with exactly the
   message of the panic that escaped p (also the last one recorded), restores
   the level, at any level [level ts] and for any body p. *)
Theorem C19_catch_result_spec : forall p g ts ev o ts2 g2,
  ours g -> enabled ts = true -> level ts < u64_max ->
  run_prog g (set_level ts (level ts + 1)) p = (ev, o, ts2, g2) ->
  match o with
  | Returned =>
      run_step g ts (Catch p) = (EEnter :: ev ++ [EExit ROk], Returned, set_level ts2 (level ts), g2)
  | Unwound m =>
      run_step g ts (Catch p) = (EEnter :: ev ++ [EExit (RErr (Some m))], Returned, set_level ts2 (level ts), g2)
      /\ last ts2 = Some m
  | Aborted w =>
      run_step g ts (Catch p) = (EEnter :: ev, Aborted w, ts2, g2)
  end.
Proof. exact catch_result_enabled. Qed.

(* ... and when catching is disabled at entry catch_panic is transparent: the
   body runs in the same state and its panic propagates. *)
Theorem C19_catch_disabled_transparent : forall p g ts ev o ts2 g2,
  enabled ts = false ->
  run_prog g ts p = (ev, o, ts2, g2) ->
  run_step g ts (Catch p) =
    match o with
    | Returned => (EEnter :: ev ++ [EExit ROk], Returned, ts2, g2)
    | _ => (EEnter :: ev, o, ts2, g2)
    end.
Proof. exact catch_result_disabled. Qed.

(* (c) outside_reaches_previous_hook: after any program that started outside
   catch_panic (level 0) and did not abort, the hook is still installed with
   the previous hook behind it, the level is 0, and a panic with fallback
   Continue is handed to the previous hook and unwinds; nothing is recorded. *)
Theorem C19_outside_reaches_previous_hook : forall p g ts ev o ts' g' m,
  installed g -> level ts = 0 ->
  run_prog g ts p = (ev, o, ts', g') -> not_aborted o ->
  installed g' /\ level ts' = 0 /\
  run_prog g' ts' (PCons (SetFallback Continue) (PCons (Panic m) PNil)) =
    ([EFallback (fb ts'); EPanic m; EPrev m], Unwound m, set_fb ts' Continue, g').
Proof. exact outside_reaches_previous_hook. Qed.

(* Model = specification: for every program, the observations, the way it ends
   and the final state are those of Spec/C19.v, as long as the u64 counter has
   room for the deepest nesting of the program (level + depth <= u64::MAX). *)
Theorem C19_model_is_spec : forall p g ts,
  installed g -> level ts + prog_depth p <= u64_max ->
  forall ev o a', spec_prog (level ts) (abs ts) p = (ev, o, a') ->
  exists ts' g', run_prog g ts p = (ev, conc_outcome o, ts', g') /\ installed g' /\
                 (o <> SAborted -> ts' = conc (level ts) a').
Proof.
  intros p g ts Hi Hd ev o a' Hs.
  pose proof (proj2 model_refines_spec_mut p g _ (abs ts) Hi Hd) as H.
  rewrite conc_abs, Hs in H.
  destruct (run_prog g ts p) as [[[ev' o'] ts'] g'] eqn:Er. destruct H as (-> & -> & Hts).
  exists ts', g'. split; [reflexivity|]. split; [exact (run_prog_installed _ _ _ _ _ _ _ Er Hi)|exact Hts].
Qed.

(* The step machine run alone is the interpreter (both designs of the
   installation, any global state). *)
Theorem C19_machine_is_interpreter : forall d n g ts p,
  finished (snd (solo d n g (thread_of ts p))) = true ->
  final_of (run_prog g ts p) (snd (solo d n g (thread_of ts p))) /\
  fst (solo d n g (thread_of ts p)) = snd (run_prog g ts p).
Proof. exact alone_is_run_prog. Qed.

(* (d) thread_frame: a step of one thread leaves the other thread's record (its
   thread-locals, its remaining code, its observations) untouched; the only
   channel is the global hook state ... *)
Theorem C19_thread_frame_step : forall d w g a b g' a' b',
  interleave d [w] g a b = (g', a', b') -> if w then b' = b else a' = a.
Proof.
  intros d w g a b g' a' b'. cbn [interleave]. destruct (crashed a || crashed b), w;
    try destruct (tstep d g _); intros [= _ <- <-]; reflexivity.
Qed.

(* ... hence, once the hook is installed (flag set), under any schedule each
   thread is exactly its own solo run and the global state never changes ... *)
Theorem C19_interleaving_independent : forall d sched g a b,
  flag g = true -> plain a -> plain b ->
  exists na nb,
    interleave d sched g a b = (g, snd (solo d na g a), snd (solo d nb g b)) /\
    (na <= ticks true sched)%nat /\ (nb <= ticks false sched)%nat /\
    (crashed (snd (solo d na g a)) || crashed (snd (solo d nb g b)) = false ->
     na = ticks true sched /\ nb = ticks false sched).
Proof. exact interleaving_independent. Qed.

(* ... and a finished thread observed what the interpreter computes for it alone. *)
Theorem C19_interleaving_matches_alone : forall d sched g pa pb tsa tsb g' a' b',
  flag g = true ->
  interleave d sched g (thread_of tsa pa) (thread_of tsb pb) = (g', a', b') ->
  g' = g /\
  (finished a' = true -> final_of (run_prog g tsa pa) a') /\
  (finished b' = true -> final_of (run_prog g tsb pb) b').
Proof.
  intros d sched g pa pb tsa tsb g' a' b' Hf Hi.
  destruct (interleaving_independent d sched g _ _ Hf (plain_thread_of tsa pa) (plain_thread_of tsb pb))
    as (na & nb & Hi' & _).
  rewrite Hi in Hi'. injection Hi' as -> -> ->.
  repeat split; intros Hfin; apply alone_is_run_prog; exact Hfin.
Qed.

(* The same for any number of threads ([sched] names the thread that moves
   next): every thread that has finished observed what the interpreter computes
   for its program alone, and the global state is untouched.  This is what the
   free-running cases of the correspondence check (k threads released by a
   barrier, no lock-step) are compared against. *)
Theorem C19_any_threads_independent : forall d sched g ts,
  flag g = true -> Forall plain ts ->
  exists ts', interleave_n d sched g ts = (g, ts') /\ Forall2 (solo_image d g) ts ts'.
Proof. exact interleaving_n_independent. Qed.

Theorem C19_any_threads_match_alone : forall d sched g (ps : list (tstate * prog)) g' ts',
  flag g = true ->
  interleave_n d sched g (map (fun tp => thread_of (fst tp) (snd tp)) ps) = (g', ts') ->
  g' = g /\
  forall i t', nth_error ts' i = Some t' -> finished t' = true ->
    exists tsi p, nth_error ps i = Some (tsi, p) /\ final_of (run_prog g tsi p) t'.
Proof. exact interleaving_n_matches_alone. Qed.

(* The exception: the first installation, raced.  The intended statement ... *)
Definition C19_install_race_benign_full : Prop := install_race_benign Racy.

(* ... is FALSE for the code as it stood when the model was written (check,
   take_hook, set_hook+store as three steps; repaired in /repo by the commit
   "fix: install the panic catcher hook exactly once").  Witness schedules,
   evaluated by vm_compute: *)
Theorem C19_install_race_refuted_unknown_message :
  exists g' a' b',
    interleave Racy race1_sched (g_fresh HPrev)
      (thread_of init_tstate race1_a) (thread_of init_tstate race1_b) = (g', a', b') /\
    finished a' = true /\ finished b' = true /\
    trace a' = [EUnit; EUnit; EEnter; EPanic 1; EDefault 1; EExit (RErr None)] /\
    fst (fst (fst (run_prog (g_fresh HPrev) init_tstate race1_a)))
      = [EUnit; EUnit; EEnter; EPanic 1; EExit (RErr (Some 1))].
Proof. eexists; eexists; eexists. vm_compute. repeat split. Qed.

Theorem C19_install_race_refuted_stale_message :
  exists g' a' b',
    interleave Racy race1s_sched (g_fresh HPrev)
      (thread_of init_tstate race1s_a) (thread_of init_tstate race1_b) = (g', a', b') /\
    finished a' = true /\ finished b' = true /\
    trace a' = [EUnit; EUnit; EEnter; EPanic 7; EExit (RErr (Some 7));
                EEnter; EPanic 1; EDefault 1; EExit (RErr (Some 7))] /\
    fst (fst (fst (run_prog (g_fresh HPrev) init_tstate race1s_a)))
      = [EUnit; EUnit; EEnter; EPanic 7; EExit (RErr (Some 7)); EEnter; EPanic 1; EExit (RErr (Some 1))].
Proof. eexists; eexists; eexists. vm_compute. repeat split. Qed.

Theorem C19_install_race_refuted_previous_hook_lost :
  exists a' b',
    interleave Racy race2_sched (g_fresh HPrev)
      (thread_of init_tstate race2_a) (thread_of init_tstate race1_b)
      = (mk_gstate true (HOurs HDefault), a', b') /\
    finished a' = true /\ finished b' = true /\
    trace a' = [EUnit; EPanic 1; EDefault 1] /\
    fst (fst (fst (run_prog (g_fresh HPrev) init_tstate race2_a))) = [EUnit; EPanic 1; EPrev 1].
Proof. eexists; eexists. vm_compute. repeat split. Qed.

(* the first witness: thread A has finished and its trace is not the one it has alone *)
Theorem C19_install_race_refuted : ~ C19_install_race_benign_full.
Proof.
  intros H.
  destruct C19_install_race_refuted_unknown_message as (g' & a' & b' & Hi & Hfa & _ & Htr & Hal).
  destruct (H HPrev _ _ _ _ _ _ _ _ Hi) as (Ha & _).
  apply Ha, final_of_trace in Hfa. fold race1_a in Hfa. rewrite Htr, Hal in Hfa. discriminate.
Qed.

(* The repaired design (installation under std::sync::Once = one indivisible
   step): the intended statement holds for all programs and schedules. *)
Theorem C19_Fixed_install_once_benign : install_race_benign Once.
Proof. exact install_once_benign. Qed.

Definition g_inst : gstate := mk_gstate true (HOurs HPrev).

Example C19_premises_satisfiable :
  installed g_inst /\ ours g_inst /\ flag g_inst = true /\
  level init_tstate + prog_depth (PCons (Catch (PCons (Catch PNil) PNil)) PNil) <= u64_max.
Proof. cbn. repeat split; try (eexists; reflexivity). discriminate. Qed.

(* nested catch, inner disabled catch, panic escaping two frames, level restored *)
Example C19_nested_example :
  run_prog g_inst init_tstate
    (PCons Enable (PCons (Catch (PCons QueryLevel (PCons Disable
       (PCons (Catch (PCons (Panic 4) PNil)) (PCons QueryLevel PNil))))) (PCons QueryLevel PNil)))
  = ([EUnit; EEnter; ELevel 1; EUnit; EEnter; EPanic 4; EExit (RErr (Some 4)); ELevel 0],
     Returned, mk_tstate false 0 (Some 4) Continue, g_inst).
Proof. vm_compute. reflexivity. Qed.

(* the overflow abort of the counter is reachable in the model *)
Example C19_overflow_aborts :
  run_prog g_inst (mk_tstate true u64_max None Continue) (PCons (Catch PNil) PNil)
  = ([], Aborted ALevelOverflow, mk_tstate true u64_max None Continue, g_inst).
Proof. vm_compute. reflexivity. Qed.

Example C19_two_threads_example :
  interleave Racy [true; false; true; true; false; true] g_inst
    (thread_of init_tstate (PCons Enable (PCons (Catch (PCons (Panic 1) PNil)) PNil)))
    (thread_of init_tstate (PCons (SetFallback Abort) (PCons QueryLevel PNil)))
  = (g_inst,
     mk_thread (mk_tstate true 0 (Some 1) Continue) [] [EUnit; EEnter; EPanic 1; EExit (RErr (Some 1))] Running,
     mk_thread (mk_tstate false 0 None Abort) [] [EFallback Continue; ELevel 0] Running).
Proof. vm_compute. reflexivity. Qed.

(* three threads panicking inside catch_panic under one schedule: each keeps its own message *)
Example C19_three_threads_example :
  let p k := PCons Enable (PCons (Catch (PCons (Panic k) PNil)) PNil) in
  map (fun t => (trace t, last (tst t)))
      (snd (interleave_n Racy [0; 1; 2; 2; 1; 0; 0; 1; 2; 1; 0; 2; 7]%nat g_inst
              [thread_of init_tstate (p 1); thread_of init_tstate (p 2); thread_of init_tstate (p 3)]))
  = [([EUnit; EEnter; EPanic 1; EExit (RErr (Some 1))], Some 1);
     ([EUnit; EEnter; EPanic 2; EExit (RErr (Some 2))], Some 2);
     ([EUnit; EEnter; EPanic 3; EExit (RErr (Some 3))], Some 3)].
Proof. vm_compute. reflexivity. Qed.

Check C19_level_balanced : forall p g ts ev o ts' g',
  run_prog g ts p = (ev, o, ts', g') -> not_aborted o -> level ts' = level ts.
Check C19_model_is_spec : forall p g ts,
  installed g -> level ts + prog_depth p <= u64_max ->
  forall ev o a', spec_prog (level ts) (abs ts) p = (ev, o, a') ->
  exists ts' g', run_prog g ts p = (ev, conc_outcome o, ts', g') /\ installed g' /\
                 (o <> SAborted -> ts' = conc (level ts) a').
Check C19_install_race_refuted : ~ install_race_benign Racy.
Check C19_Fixed_install_once_benign : install_race_benign Once.

Print Assumptions C19_level_balanced.
Print Assumptions C19_level_balanced_step.
Print Assumptions C19_catch_result_spec.
Print Assumptions C19_catch_disabled_transparent.
Print Assumptions C19_outside_reaches_previous_hook.
Print Assumptions C19_model_is_spec.
Print Assumptions C19_machine_is_interpreter.
Print Assumptions C19_thread_frame_step.
Print Assumptions C19_interleaving_independent.
Print Assumptions C19_interleaving_matches_alone.
Print Assumptions C19_any_threads_independent.
Print Assumptions C19_any_threads_match_alone.
Print Assumptions C19_install_race_refuted.
Print Assumptions C19_install_race_refuted_unknown_message.
Print Assumptions C19_install_race_refuted_stale_message.
Print Assumptions C19_install_race_refuted_previous_hook_lost.
Print Assumptions C19_Fixed_install_once_benign.
