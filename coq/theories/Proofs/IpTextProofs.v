(* The text form of an address (Display, Sem/CtxSerde.v) is one of the notations of
   Spec/C06.v, so the model of IpAddr::from_str (Parse/Lex.v) reads it back as the
   same address (LexIpProofs.addr_text_facts): every IPv4 and every IPv6 address,
   whatever its zero groups. *)
From Coq Require Import List NArith ZArith Bool Lia.
From WF Require Import Base.Sexp Sem.RangeSet Parse.Lex Spec.C06 Proofs.ListFacts Proofs.LexBase Proofs.LexIpProofs
     Sem.CtxSerde.
Import ListNotations.
Local Open Scope N_scope.

Lemma radix_fold b a : (0 < b)%Z -> forall n acc,
  fold_left (fun x i => x * b + (a / b ^ Z.of_nat i) mod b)%Z (rev (seq 0 n)) acc
  = (acc * b ^ Z.of_nat n + a mod b ^ Z.of_nat n)%Z.
Proof.
  intros Hb. induction n as [|n IH]; intros acc.
  - cbn. rewrite Z.mod_1_r. lia.
  - rewrite seq_S, rev_app_distr. cbn [rev app fold_left plus]. rewrite IH.
    rewrite Nat2Z.inj_succ, Z.pow_succ_r, (Z.mul_comm b), Z.rem_mul_r by lia. lia.
Qed.

Lemma print_octet o : C06.octet (Z.of_N o) -> print_N o = print_dec (Z.of_N o).
Proof.
  intros H. apply (ext_in_map (g := fun o => print_dec (Z.of_N o)) (l := map N.of_nat (seq 0 256)));
    [vm_compute; reflexivity|].
  rewrite <- (N2Nat.id o). apply in_map, in_seq. unfold C06.octet in H. lia.
Qed.

Lemma digit_char_hex_digit d : d < 16 -> digit_char false (Z.of_N d) = hex_digit d.
Proof. intros H. unfold digit_char, hex_digit. destruct (N.ltb_spec d 10), (Z.ltb_spec (Z.of_N d) 10); lia. Qed.

Lemma nibbles_of n : n < 65536 ->
  n / 4096 < 16 /\ (n / 256) mod 16 < 16 /\ (n / 16) mod 16 < 16 /\ n mod 16 < 16 /\
  n = ((n / 4096 * 16 + (n / 256) mod 16) * 16 + (n / 16) mod 16) * 16 + n mod 16.
Proof.
  intros H. change 4096 with (16 * 16 * 16). change 256 with (16 * 16). rewrite <- !N.div_div by lia.
  pose proof (N.div_mod n 16). pose proof (N.div_mod (n / 16) 16). pose proof (N.div_mod (n / 16 / 16) 16).
  pose proof (N.mod_lt n 16). pose proof (N.mod_lt (n / 16) 16). pose proof (N.mod_lt (n / 16 / 16) 16).
  assert (n / 16 / 16 / 16 < 16) by (rewrite !N.div_div by lia; apply N.div_lt_upper_bound; lia). lia.
Qed.

(* Display prints the nibbles from the first non-zero one on *)
Lemma show_hex16_radix g : group16 g -> show_hex16 g = print_radix 16 g false.
Proof.
  intros [H0 H]. destruct (nibbles_of (Z.to_N g) ltac:(lia)) as (B3 & B2 & B1 & B0 & E).
  unfold show_hex16. cbv zeta.
  set (d3 := Z.to_N g / 4096) in *. set (d2 := (Z.to_N g / 256) mod 16) in *.
  set (d1 := (Z.to_N g / 16) mod 16) in *. set (d0 := Z.to_N g mod 16) in *.
  replace g with (((Z.of_N d3 * 16 + Z.of_N d2) * 16 + Z.of_N d1) * 16 + Z.of_N d0)%Z by lia.
  clearbody d3 d2 d1 d0. clear E.
  destruct (N.ltb_spec 0 d3) as [P|E3%N.le_0_r];
    [|destruct (N.ltb_spec 0 d2) as [P|E2%N.le_0_r]; [|destruct (N.ltb_spec 0 d1) as [P|E1%N.le_0_r]]].
  all: subst; cbn [Z.of_N Z.mul Z.add].
  all: rewrite ?(print_radix_snoc 16 false) by lia; rewrite (print_radix_lt 16 false) by lia.
  all: cbn [app]; now rewrite !digit_char_hex_digit.
Qed.

Lemma octet_Z a i : Z.of_N (octet a i) = ((a / 256 ^ i) mod 256)%Z.
Proof.
  unfold octet. pose proof (Z.mod_pos_bound (a / 256 ^ i) 256 ltac:(lia)). lia.
Qed.

Lemma octet_octet a i : C06.octet (Z.of_N (octet a i)).
Proof. rewrite octet_Z. apply Z.mod_pos_bound. lia. Qed.

Lemma show_v4_print a :
  show_v4 a = print_v4 (Z.of_N (octet a 3)) (Z.of_N (octet a 2)) (Z.of_N (octet a 1)) (Z.of_N (octet a 0)).
Proof. unfold show_v4. now rewrite !print_octet by apply octet_octet. Qed.

Lemma octets_value a : (0 <= a < 2 ^ 32)%Z ->
  v4_of (Z.of_N (octet a 3)) (Z.of_N (octet a 2)) (Z.of_N (octet a 1)) (Z.of_N (octet a 0)) = a.
Proof.
  intros H. unfold v4_of. rewrite !octet_Z.
  transitivity (a mod 256 ^ Z.of_nat 4)%Z; [exact (radix_fold 256 a eq_refl 4 0)|apply Z.mod_small, H].
Qed.

Lemma show_v4_text a : (0 <= a < 2 ^ 32)%Z -> addr_text (show_v4 a) (V4 a).
Proof.
  intros H. rewrite show_v4_print. pattern a at 5. rewrite <- (octets_value a H). apply AT4; apply octet_octet.
Qed.

Lemma group_group16 a i : group16 (group a i).
Proof. apply Z.mod_pos_bound. lia. Qed.

Lemma groups_of_groups a : Forall group16 (groups_of a).
Proof. unfold groups_of. repeat constructor; apply group_group16. Qed.

Lemma v6_of_fold (f : nat -> Z) l : forall acc,
  v6_of (map f l) acc = fold_left (fun x i => x * 65536 + f i)%Z l acc.
Proof. induction l as [|i l IH]; intros acc; [reflexivity|apply IH]. Qed.

Lemma groups_value a : (0 <= a < 2 ^ 128)%Z -> v6_of (groups_of a) 0 = a.
Proof.
  intros H. change (groups_of a) with (map (fun i => group a (Z.of_nat i)) (rev (seq 0 8))).
  rewrite v6_of_fold. transitivity (a mod 65536 ^ Z.of_nat 8)%Z; [exact (radix_fold 65536 a eq_refl 8 0)|apply Z.mod_small, H].
Qed.

Lemma groups_val_app a : forall b acc, groups_val (a ++ b) acc = groups_val b (groups_val a acc).
Proof. induction a as [|x a IH]; intros b acc; [reflexivity|]. cbn [app groups_val]. apply IH. Qed.

Lemma join_groups gs : Forall group16 gs -> join_colon (map show_hex16 gs) = print_groups false gs.
Proof.
  induction 1 as [|g gs Hg _ IH]; [reflexivity|]. cbn [map join_colon print_groups].
  rewrite IH, (show_hex16_radix g Hg). now destruct gs.
Qed.

(* [zero_span] returns a span of zero groups.  Scanning [gs] after [pre]: the
   current run is the zeros [pre] ends with, the longest so far lies somewhere
   in the whole list. *)
Lemma zero_span_run gs : forall pre h cs cl ls ll,
  pre = h ++ repeat 0%Z cl -> (cl = 0 \/ cs = length h)%nat ->
  (exists h' t, pre ++ gs = h' ++ repeat 0%Z ll ++ t /\ length h' = ls) ->
  let (s, l) := zero_span gs (length pre) (cs, cl) (ls, ll) in
  exists h' t, pre ++ gs = h' ++ repeat 0%Z l ++ t /\ length h' = s.
Proof.
  induction gs as [|g gs IH]; intros pre h cs cl ls ll Hp Hc Hb; cbn [zero_span fst snd]; [exact Hb|].
  change (g :: gs) with ([g] ++ gs) in *. rewrite app_assoc in *. rewrite <- (last_length pre g).
  destruct (Z.eqb_spec g 0) as [->|Hg].
  - assert (Hp' : pre ++ [0%Z] = h ++ repeat 0%Z (S cl)) by (rewrite Hp, <- app_assoc, <- repeat_cons; reflexivity).
    assert (Hc' : (S cl = 0 \/ (if Nat.eqb cl 0 then length pre else cs) = length h)%nat).
    { right. destruct (Nat.eqb_spec cl 0) as [->|]; [now rewrite Hp, app_nil_r|now destruct Hc]. }
    destruct (Nat.ltb ll (S cl)); apply (IH _ h); try assumption.
    exists h, gs. split; [now rewrite Hp', <- app_assoc|now destruct Hc'].
  - apply (IH _ (pre ++ [g])); [symmetry; apply app_nil_r|now left|exact Hb].
Qed.

Lemma split_at {A} (h m t : list A) :
  firstn (length h) (h ++ m ++ t) = h /\ skipn (length h + length m) (h ++ m ++ t) = t.
Proof.
  split.
  - apply firstn_app_exact.
  - now rewrite app_assoc, <- app_length, skipn_app, skipn_all, Nat.sub_diag.
Qed.

Lemma show_v6_text a : (0 <= a < 2 ^ 128)%Z -> addr_text (show_v6 a) (V6 a).
Proof.
  intros H. pose proof (groups_value a H) as Hval. pose proof (groups_of_groups a) as HG.
  unfold show_v6. destruct (is_v4_mapped a) eqn:Em.
  - (* ::ffff:a.b.c.d *)
    unfold is_v4_mapped in Em.
    apply andb_true_iff in Em as [[[[[E7 E6]%andb_true_iff E5]%andb_true_iff E4]%andb_true_iff E3]%andb_true_iff E2].
    apply Z.eqb_eq in E7, E6, E5, E4, E3, E2.
    pose proof (group_group16 a 1) as Hg1. pose proof (group_group16 a 0) as Hg0. unfold group16 in Hg1, Hg0.
    set (v := (group a 1 * 65536 + group a 0)%Z).
    pose proof (octets_value v ltac:(change (2 ^ 32)%Z with 4294967296%Z; unfold v; lia)) as Hv.
    rewrite show_v4_print. unfold v4_of in Hv.
    pose proof (octet_octet v 3) as O3. pose proof (octet_octet v 2) as O2.
    pose proof (octet_octet v 1) as O1. pose proof (octet_octet v 0) as O0.
    set (o3 := Z.of_N (octet v 3)) in *. set (o2 := Z.of_N (octet v 2)) in *.
    set (o1 := Z.of_N (octet v 1)) in *. set (o0 := Z.of_N (octet v 0)) in *.
    replace (V6 a) with (V6 (v6_of ([] ++ repeat 0%Z (6 - (0 + 1)) ++ [65535%Z] ++ [o3 * 256 + o2; o1 * 256 + o0]%Z) 0)).
    + apply (AT6ce false [] [65535%Z]); auto. repeat constructor; lia.
    + f_equal. rewrite <- Hval. unfold groups_of.
      rewrite E7, E6, E5, E4, E3, E2. unfold C06.octet in *. cbn [app repeat v6_of Nat.sub plus].
      subst v. lia.
  - set (G := groups_of a) in *.
    pose proof (zero_span_run G [] [] 0 0 0 0 eq_refl (or_introl eq_refl)
                  (ex_intro _ [] (ex_intro _ G (conj eq_refl eq_refl)))) as Hz.
    cbn [app length] in Hz. destruct (zero_span G 0 (0%nat, 0%nat) (0%nat, 0%nat)) as [s l].
    destruct (Nat.ltb_spec 1 l) as [Hl|Hl].
    + destruct Hz as (h & t & EG & <-).
      assert (El : (length h + l + length t = 8)%nat)
        by (change 8%nat with (length G); rewrite EG, !app_length, repeat_length; lia).
      rewrite EG in HG. apply Forall_app in HG. destruct HG as [Hh HG]. apply Forall_app in HG. destruct HG as [_ Ht].
      destruct (split_at h (repeat 0%Z l) t) as [E1 E2]. rewrite repeat_length in E2. rewrite EG, E1, E2.
      rewrite !join_groups, <- Hval, EG by assumption. replace l with (8 - (length h + length t))%nat by lia.
      apply AT6c; try assumption. lia.
    + rewrite join_groups, <- Hval by assumption. now apply AT6.
Qed.

(* Display writes one of the texts that from_str accepts *)
Theorem show_ip_text (a : ip) :
  match a with V4 x => (0 <= x < 2 ^ 32)%Z | V6 x => (0 <= x < 2 ^ 128)%Z end -> addr_text (show_ip a) a.
Proof. destruct a; [apply show_v4_text|apply show_v6_text]. Qed.

Theorem parse_show_ip (a : ip) :
  match a with V4 x => (0 <= x < 2 ^ 32)%Z | V6 x => (0 <= x < 2 ^ 128)%Z end ->
  parse_addr (show_ip a) = Some a.
Proof. intros H. now apply addr_text_facts, show_ip_text. Qed.
