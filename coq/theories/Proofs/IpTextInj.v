(* C07, part 5: the model of std's Display for addresses used by the AST's JSON
   ([ip_text], Sem/AstJson.v) writes, on 32 / 128 bit values, the same text as the
   one used for context values ([show_ip], Sem/CtxSerde.v), which from_str reads
   back (IpTextProofs.parse_show_ip): it is injective.  It never prints a `/`.
   These are the two facts about addresses the injectivity of the JSON document
   relies on. *)
From Coq Require Import List ZArith Bool Lia.
From WF Require Import Parse.Lex Sem.CtxSerde Proofs.ListFacts Proofs.IpTextProofs Sem.AstJson
     Spec.C07 Proofs.AstJsonProofs Proofs.JsonPrintProofs.
Import ListNotations.
Local Open Scope N_scope.

Lemma join_colon_sep l : join_colon l = join_sep 58 l.
Proof. induction l as [|x [|y l] IH]; [reflexivity..|]. cbn [join_colon join_sep] in *. now rewrite IH. Qed.

(* one model cases on the size of n, the other on its leading nibbles *)
Lemma hex_text_show n : hex_text n = show_hex16 (Z.of_N n).
Proof.
  unfold show_hex16, hex_text. rewrite N2Z.id. cbv zeta.
  assert (P : forall k, 0 < k <= n -> (0 <? n / k) = true) by (intros k Hk; apply N.ltb_lt, N.div_str_pos; lia).
  destruct (N.ltb_spec n 16); [|destruct (N.ltb_spec n 256); [|destruct (N.ltb_spec n 4096)]].
  - rewrite !N.div_small, !N.mod_small by lia. reflexivity.
  - rewrite (N.div_small n 4096), (N.div_small n 256), (N.mod_small (n / 16)), P
      by (try apply N.div_lt_upper_bound; lia). reflexivity.
  - rewrite (N.div_small n 4096), (N.mod_small (n / 256)), P by (try apply N.div_lt_upper_bound; lia). reflexivity.
  - now rewrite P by lia.
Qed.

Lemma v4_text_show a : (0 <= a < 2 ^ 32)%Z -> v4_text a = show_v4 a.
Proof.
  intros H. unfold v4_text, show_v4, v4_octets. cbn [map join_sep].
  assert (E : forall i, (0 <= i)%Z -> octet a i = (Z.to_N a / 256 ^ Z.to_N i) mod 256).
  { intros i Hi. apply N2Z.inj. now rewrite octet_Z, N2Z.inj_mod, N2Z.inj_div, N2Z.inj_pow, !Z2N.id by lia. }
  rewrite !E by lia. change (256 ^ Z.to_N 3) with 16777216. change (256 ^ Z.to_N 2) with 65536.
  change (256 ^ Z.to_N 1) with 256. change (256 ^ Z.to_N 0) with 1. rewrite N.div_1_r.
  rewrite (N.mod_small (_ / 16777216)); [reflexivity|].
  apply N.div_lt_upper_bound; [discriminate|]. change (16777216 * 256) with (Z.to_N (2 ^ 32)). lia.
Qed.

Lemma group_segment a i : (0 <= a)%Z -> Z.of_N ((Z.to_N a / 2 ^ (16 * i)) mod 65536) = group a (Z.of_N i).
Proof.
  intros H. unfold group. rewrite N2Z.inj_mod, N2Z.inj_div, N2Z.inj_pow, N2Z.inj_mul, Z2N.id, Z.pow_mul_r by lia.
  reflexivity.
Qed.

Lemma groups_segments a : (0 <= a)%Z -> groups_of a = map Z.of_N (v6_segments a).
Proof. intros H. unfold v6_segments, groups_of. cbn [map]. now rewrite !group_segment. Qed.

Lemma zero_span_segments S : forall i cur best,
  zero_span (map Z.of_N S) i cur best = longest_zero_run S i cur best.
Proof.
  induction S as [|x S IH]; intros i cur best; [reflexivity|]. cbn [map longest_zero_run zero_span].
  rewrite !IH. now destruct x.
Qed.

Lemma N2Z_eqb x y : (Z.of_N x =? Z.of_N y)%Z = (x =? y).
Proof. now destruct x, y. Qed.

Lemma mapped_agree a : (0 <= a)%Z ->
  match v4_mapped (v6_segments a) with
  | Some v => is_v4_mapped a = true /\ Z.of_N v = (group a 1 * 65536 + group a 0)%Z
  | None => is_v4_mapped a = false
  end.
Proof.
  intros H. pose proof (groups_segments a H) as E. unfold is_v4_mapped, groups_of in *.
  assert (ES : exists s7 s6 s5 s4 s3 s2 s1 s0, v6_segments a = [s7; s6; s5; s4; s3; s2; s1; s0])
    by (unfold v6_segments; cbn [map]; repeat eexists).
  destruct ES as (s7 & s6 & s5 & s4 & s3 & s2 & s1 & s0 & ES). rewrite ES in *.
  injection E as E7 E6 E5 E4 E3 E2 E1 E0. rewrite E7, E6, E5, E4, E3, E2, E1, E0.
  cbn [v4_mapped]. rewrite !(N2Z_eqb _ 0), (N2Z_eqb _ 65535).
  destruct (_ && _); [split; [reflexivity|lia]|reflexivity].
Qed.

Lemma v6_text_show a : (0 <= a < 2 ^ 128)%Z -> v6_text a = show_v6 a.
Proof.
  intros H. pose proof (mapped_agree a ltac:(lia)) as M.
  pose proof (group_group16 a 1) as B1. pose proof (group_group16 a 0) as B0.
  unfold v6_text, show_v6. rewrite (groups_segments a) by lia. cbv zeta.
  revert M. generalize (v6_segments a) as S. intros S M.
  destruct (v4_mapped S) as [v|]; [destruct M as [-> Ev]|rewrite M].
  - rewrite v4_text_show, Ev; [reflexivity|]. unfold C06.group16 in *. change (2 ^ 32)%Z with 4294967296%Z. lia.
  - rewrite zero_span_segments. destruct (longest_zero_run S 0 (0, 0) (0, 0))%nat as [s l]. cbn [fst snd].
    unfold fmt_subslice. rewrite !join_colon_sep, !firstn_map, !skipn_map, !map_map.
    now rewrite !(map_ext _ _ hex_text_show).
Qed.

Theorem ip_text_show a : ip_ok a -> ip_text a = show_ip a.
Proof. destruct a; [apply v4_text_show|apply v6_text_show]. Qed.

(* so Display is injective: from_str reads the address back *)
Theorem ip_text_injective : forall a c, ip_ok a -> ip_ok c -> ip_text a = ip_text c -> a = c.
Proof.
  intros a c Ha Hc H. rewrite !ip_text_show in H by assumption.
  apply (f_equal parse_addr) in H. rewrite !parse_show_ip in H by assumption. now injection H.
Qed.

Lemma join_sep_in sep : forall gs c, In c (join_sep sep gs) -> c = sep \/ exists g, In g gs /\ In c g.
Proof.
  induction gs as [|g r IH]; intros c H; [destruct H|].
  rewrite join_sep_cons in H. apply in_app_or in H. destruct H as [H|H].
  - right. exists g. split; [now left|exact H].
  - destruct r as [|g' r']; [destruct H|]. destruct H as [<-|H]; [now left|].
    destruct (IH c H) as [->|(g0 & Hg & Hc)]; [now left|]. right. exists g0. split; [now right|exact Hc].
Qed.

Lemma dig_not c : dig c = true -> c <> 46 /\ c <> 47 /\ c <> 58.
Proof. unfold dig. intro H. apply andb_prop in H. destruct H as [H1 H2]. apply N.leb_le in H1, H2. lia. Qed.

Definition hexch (c : N) : bool := dig c || ((97 <=? c) && (c <=? 102)).

Lemma hexch_not c : hexch c = true -> c <> 46 /\ c <> 47 /\ c <> 58.
Proof.
  unfold hexch. intro H. apply orb_prop in H. destruct H as [H|H]; [now apply dig_not|].
  apply andb_prop in H. destruct H as [H1 H2]. apply N.leb_le in H1, H2. lia.
Qed.

Lemma digit_char_hexch d : (0 <= d < 16)%Z -> hexch (C06.digit_char false d) = true.
Proof. intro H. unfold hexch, dig, C06.digit_char. destruct (Z.ltb_spec d 10); lia. Qed.

Lemma v4_chars c a : In c (v4_text a) -> c = 46 \/ dig c = true.
Proof.
  unfold v4_text. intro H. apply join_sep_in in H. destruct H as [->|(g & Hg & Hc)]; [now left|]. right.
  apply in_map_iff in Hg. destruct Hg as (x & <- & _).
  pose proof (print_N_digits x) as Hd. rewrite Forall_forall in Hd. now apply Hd.
Qed.

Lemma fmt_chars l c : Forall (fun n => n < 65536) l -> In c (fmt_subslice l) -> c = 58 \/ hexch c = true.
Proof.
  intros Hl H. apply join_sep_in in H. destruct H as [->|(g & Hg & Hc)]; [now left|]. right.
  apply in_map_iff in Hg. destruct Hg as (n & <- & Hn). rewrite Forall_forall in Hl. specialize (Hl n Hn).
  rewrite hex_text_show, show_hex16_radix in Hc by (unfold C06.group16; lia).
  revert c Hc. apply Forall_forall, LexBase.print_radix_forall; [lia..|]. intros d Hd. now apply digit_char_hexch.
Qed.

Lemma v6_chars a c : In c (v6_text a) -> c = 46 \/ c = 58 \/ hexch c = true.
Proof.
  assert (HS : Forall (fun n => n < 65536) (v6_segments a))
    by (unfold v6_segments; repeat constructor; apply N.mod_lt; discriminate).
  unfold v6_text. generalize (v6_segments a) HS. intros S HS'. cbv zeta. destruct (v4_mapped S) as [v|].
  - intros [H|H]%in_app_or.
    + change (In c [58; 58; 102; 102; 102; 102; 58]) in H. repeat (destruct H as [<-|H]; auto).
    + apply v4_chars in H. destruct H as [->|H]; auto. right. right. unfold hexch. now rewrite H.
  - destruct (Nat.ltb 1 _); [intros [H|[<-|[<-|H]]]%in_app_or|intros H]; auto;
      right; apply (fmt_chars _ c) in H; auto; now apply Forall_cut.
Qed.

Theorem ip_text_no_slash : forall a, ~ In 47 (ip_text a).
Proof.
  intros [a|a] H; cbn [ip_text] in H.
  - apply v4_chars in H. destruct H as [H|H]; [discriminate H|now apply dig_not in H].
  - apply v6_chars in H. destruct H as [H|[H|H]]; [discriminate H..|now apply hexch_not in H].
Qed.
