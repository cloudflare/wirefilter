(* The parser model accepts only well-typed filters whose nesting is within the
   configured limit, never panics, and every error span it reports lies inside
   the input.  One induction on the fuel over the nine mutually recursive
   functions of Parse/Parser.v.  The facts needed about the character-level
   lexers of Parse/Lex.v are collected in [lex_facts]; they are proved in
   Proofs/LexFacts.v and the closed statements are in Proofs/ParserClosed.v. *)
From Coq Require Import List NArith Bool Lia Arith.
From WF Require Import Base.Bytes Sem.Matchers Lang.Types Lang.Ast Sem.Compile Spec.Typing Spec.C13
     Parse.Lex Parse.Parser Proofs.ListFacts Proofs.ValueProofs Proofs.TypingProofs Proofs.ByteKeys.
From WF Require Export Proofs.ParserCases.
Import ListNotations.
Local Notation length := List.length (only parsing).

Definition suffix (x y : bytes) : Prop := exists p, y = p ++ x.

Lemma suffix_refl x : suffix x x. Proof. now exists []. Qed.
Lemma suffix_trans x y z : suffix x y -> suffix y z -> suffix x z.
Proof. intros [p ->] [q ->]. exists (q ++ p). now rewrite app_assoc. Qed.
Lemma suffix_cons b x : suffix x (b :: x). Proof. now exists [b]. Qed.
Lemma suffix_skipn n x : suffix (skipn n x) x.
Proof. exists (firstn n x). now rewrite firstn_skipn. Qed.
Lemma suffix_length x y : suffix x y -> (length x <= length y)%nat.
Proof. intros [p ->]. rewrite app_length. lia. Qed.

Lemma starts_with_inv p : forall s r, starts_with p s = Some r -> s = p ++ r.
Proof.
  induction p as [|x p IH]; intros s r H; cbn in H.
  - now injection H as <-.
  - destruct s as [|y s]; [discriminate|]. destruct (N.eqb_spec x y) as [->|]; [|discriminate].
    cbn. f_equal. now apply IH.
Qed.
Lemma starts_with_suffix p s r : starts_with p s = Some r -> suffix r s.
Proof. intros H. exists p. now apply starts_with_inv. Qed.

Lemma skip_space_suffix s : suffix (skip_space s) s.
Proof.
  induction s as [|b r IH]; cbn; [apply suffix_refl|].
  destruct (is_space b); [|apply suffix_refl]. eapply suffix_trans; [exact IH|apply suffix_cons].
Qed.

(* [whole] is the complete (trimmed) input; every span must lie inside it *)
Definition lpost {A} (whole : bytes) (P : A -> Prop) (r : lres A) : Prop :=
  match r with
  | LOk a rest => P a /\ suffix rest whole
  | LErr _ at_ n => suffix at_ whole /\ (n <= length at_)%nat
  | LPanic => False
  | LFuel => True
  end.

Lemma lpost_weaken {A} (i w : bytes) (P Q : A -> Prop) r :
  lpost i P r -> suffix i w -> (forall a, P a -> Q a) -> lpost w Q r.
Proof.
  destruct r as [a rest|k at_ n| |]; cbn; auto.
  - intros [H1 H2] Hs HPQ. split; [auto|]. eapply suffix_trans; eauto.
  - intros [H1 H2] Hs _. split; [|exact H2]. eapply suffix_trans; eauto.
Qed.

Lemma lpost_sub {A} i w (P : A -> Prop) r : lpost i P r -> suffix i w -> lpost w P r.
Proof. intros H Hs. eapply lpost_weaken; eauto. Qed.

Lemma lpost_bind {A B} w (P : A -> Prop) (Q : B -> Prop) r k :
  lpost w P r -> (forall a rest, P a -> suffix rest w -> lpost w Q (k a rest)) -> lpost w Q (lbind r k).
Proof. destruct r as [a rest|k0 at_ n| |]; cbn; auto. intros [H1 H2] Hk. now apply Hk. Qed.

Lemma lpost_map {A B} w (P : A -> Prop) (Q : B -> Prop) (f : A -> B) r :
  lpost w P r -> (forall a, P a -> Q (f a)) -> lpost w Q (lmap f r).
Proof. intros H HPQ. unfold lmap. eapply lpost_bind; [exact H|]. intros a rest Ha Hs. cbn. auto. Qed.

Lemma lpost_ok_suffix {A} i (P : A -> Prop) r a rest : lpost i P r -> r = LOk a rest -> suffix rest i.
Proof. intros H ->. exact (proj2 H). Qed.

Lemma lpost_err {A} w (P : A -> Prop) k at_ n :
  suffix at_ w -> (n <= length at_)%nat -> lpost w P (LErr k at_ n).
Proof. cbn; auto. Qed.

Lemma expect_post s i : lpost i (fun _ : unit => True) (expect s i).
Proof.
  unfold expect. destruct (starts_with s i) eqn:E; cbn.
  - split; [exact I|]. eapply starts_with_suffix; eauto.
  - split; [apply suffix_refl|lia].
Qed.

Lemma span_len_le i r : (span_len i r <= length i)%nat.
Proof. unfold span_len. lia. Qed.

Lemma lex_alts_suffix {A} (alts : list (bytes * A)) : forall i a r, lex_alts alts i = Some (a, r) -> suffix r i.
Proof.
  induction alts as [|[t x] alts IH]; intros i a r H; cbn in H; [discriminate|].
  destruct (starts_with t i) eqn:E.
  - injection H as <- <-. eapply starts_with_suffix; eauto.
  - eauto.
Qed.

Lemma combining_suffix i : suffix (snd (lex_combining_op i)) i.
Proof.
  unfold lex_combining_op. destruct (lex_alts logical_ops (skip_space i)) as [[op r]|] eqn:E; cbn.
  - eapply suffix_trans; [apply skip_space_suffix|].
    eapply suffix_trans; [eapply lex_alts_suffix; eauto|apply skip_space_suffix].
  - apply suffix_refl.
Qed.

Lemma quant_call_alts i q r : lex_quant_call i = Some (q, r) -> lex_alts quant_ops i = Some (q, r).
Proof.
  unfold lex_quant_call. destruct (lex_alts quant_ops i) as [[q' r']|]; [|discriminate].
  destruct (starts_with [40] (skip_space r')); [|discriminate]. intros H. injection H as <- <-. reflexivity.
Qed.

(* suffix goals: through white space, a matched token, an operator *)
Ltac sfx :=
  repeat first
    [ assumption
    | apply suffix_refl
    | match goal with
      | |- suffix (skip_space _) _ => eapply suffix_trans; [apply skip_space_suffix|]
      | H : starts_with _ ?i = Some ?r |- suffix ?r _ => eapply suffix_trans; [exact (starts_with_suffix _ _ _ H)|]
      | H : lex_alts _ ?i = Some (_, ?r) |- suffix ?r _ => eapply suffix_trans; [exact (lex_alts_suffix _ _ _ _ H)|]
      | H : lex_quant_call ?i = Some (_, ?r) |- suffix ?r _ => eapply suffix_trans; [exact (lex_alts_suffix _ _ _ _ (quant_call_alts _ _ _ H))|]
      | |- suffix (snd (lex_combining_op _)) _ => eapply suffix_trans; [apply combining_suffix|]
      end ].
Ltac err := apply lpost_err; [sfx|first [apply span_len_le|lia]].
(* [lem] run on a suffix of the whole input, then the continuation *)
Ltac bindL lem :=
  eapply lpost_bind; [eapply lpost_sub; [apply lem|sfx]|];
  intros ?x ?rest ?Hx ?Hrest.

Record lex_facts : Prop := {
  lf_int : forall i, lpost i (fun _ => True) (lex_int i);
  lf_bytes : forall i, lpost i (fun _ => True) (lex_bytes i);
  lf_ip : forall i, lpost i (fun _ => True) (lex_ip i);
  lf_int_range : forall i, lpost i (fun _ => True) (lex_int_range i);
  lf_ip_range : forall i, lpost i (fun x => ip_item_wfb x = true) (lex_ip_range i);
  lf_list_name : forall i, lpost i (fun _ => True) (lex_list_name i);
  lf_ident_name : forall i, lpost i (fun n => (length n <= length i)%nat) (lex_ident_name i);
  lf_field_index : forall i, lpost i (fun _ => True) (lex_field_index i);
  lf_raw_str : forall i, lpost i (fun _ => True) (lex_raw_string_as_str i);
  lf_quoted_or_raw : forall i, lpost i (fun _ => True) (lex_quoted_or_raw_string i);
}.

Lemma find_field_some name l : forall k i, find_field name l k = Some i -> (k <= i)%nat /\ nth_error l (i - k) <> None.
Proof.
  induction l as [|f r IH]; intros k i H; cbn in H; [discriminate|].
  destruct (bytes_eqb name (fd_name f)).
  - injection H as <-. rewrite Nat.sub_diag. cbn. split; [lia|discriminate].
  - destruct (IH _ _ H) as [H1 H2]. split; [lia|]. replace (i - k)%nat with (S (i - S k)) by lia. exact H2.
Qed.
Lemma find_fn_some name l : forall k i, find_fn name l k = Some i ->
  (k <= i)%nat /\ exists n d, nth_error l (i - k) = Some (n, d) /\ bytes_eqb name n = true.
Proof.
  induction l as [|[n f] r IH]; intros k i H; cbn in H; [discriminate|].
  destruct (bytes_eqb name n) eqn:E.
  - injection H as <-. rewrite Nat.sub_diag. split; [lia|]. exists n, f. auto.
  - destruct (IH _ _ H) as [H1 H2]. split; [lia|]. replace (i - k)%nat with (S (i - S k)) by lia. exact H2.
Qed.

Lemma scheme_get_field sch name i : scheme_get sch name = Some (IdField i) -> field_ty sch i <> None.
Proof.
  unfold scheme_get, field_ty. destruct (find_field name (sc_fields sch) 0) as [j|] eqn:E.
  - intros H. injection H as <-. destruct (find_field_some _ _ _ _ E) as [_ H]. rewrite Nat.sub_0_r in H.
    destruct (nth_error (sc_fields sch) j); [discriminate|contradiction].
  - destruct (find_fn name (sc_functions sch) 0); discriminate.
Qed.
Lemma scheme_get_fn sch name i : scheme_get sch name = Some (IdFn i) -> fn_of sch i <> None.
Proof.
  unfold scheme_get, fn_of. destruct (find_field name (sc_fields sch) 0) as [j|] eqn:E; [discriminate|].
  destruct (find_fn name (sc_functions sch) 0) as [j|] eqn:E2; [|discriminate].
  intros H. injection H as <-. destruct (find_fn_some _ _ _ _ E2) as (_ & n & d & H & _). rewrite Nat.sub_0_r in H.
  now rewrite H.
Qed.

Lemma index_step_ok t i t' : index_step t i = Some t' -> ty_index_ok t [index_of_raw i] = Some t'.
Proof. destruct i, t; cbn; intros H; try discriminate H; exact H. Qed.

Lemma lex_indexes_post (F : lex_facts) sch st w t0 fuel : forall input t acc,
  suffix input w -> ty_index_ok t0 (rev acc) = Some t ->
  lpost w (fun idx => exists t', ty_index_ok t0 idx = Some t') (lex_indexes sch st fuel input t acc).
Proof.
  induction fuel as [|f IH]; intros input t acc Hs Hacc; cbn [lex_indexes]; [exact I|].
  destruct (starts_with [91] input) as [rest|] eqn:E; [|split; [eauto|exact Hs]].
  bindL (lf_field_index F). bindL expect_post. destruct (index_step t x) as [t'|] eqn:Ei; [|err].
  apply IH; [assumption|]. cbn [rev]. rewrite ty_index_ok_app, Hacc. now apply index_step_ok.
Qed.

Lemma brace_items_post {A} (P : A -> Prop) (lex1 : bytes -> lres A) w :
  (forall i, lpost i P (lex1 i)) ->
  forall fuel input acc, suffix input w -> Forall P acc ->
    lpost w (Forall P) (brace_items fuel lex1 input acc).
Proof.
  intros H1. induction fuel as [|f IH]; intros input acc Hs Hacc; cbn [brace_items]; [exact I|].
  destruct (starts_with [125] (skip_space input)) as [rest|] eqn:E.
  - split; [now apply Forall_rev|sfx].
  - bindL H1. apply IH; [assumption|]. constructor; assumption.
Qed.

Lemma brace_list_post {A} (P : A -> Prop) (lex1 : bytes -> lres A) w input :
  (forall i, lpost i P (lex1 i)) -> suffix input w ->
  lpost w (Forall P) (lex_brace_list lex1 input).
Proof. intros H1 Hs. unfold lex_brace_list. bindL expect_post. apply brace_items_post; auto. Qed.

Lemma next_char_suffix s c r : next_char s = Some (c, r) -> suffix r s.
Proof.
  unfold next_char. destruct s as [|b s']; [discriminate|]. intros H. injection H as <- <-. apply suffix_skipn.
Qed.

Lemma regex_scan_go_suffix n : forall s ic p rest, (List.length s <= n)%nat ->
  regex_scan_go s ic = Some (p, rest) -> suffix rest s.
Proof.
  induction n as [|n IH]; intros s ic p rest Hn H; (destruct s as [|c s1]; [discriminate|]); cbn [List.length] in Hn; [lia|].
  cbn [regex_scan_go] in H. destruct (c =? 92)%N.
  - destruct s1 as [|c2 s2]; [discriminate|]. cbn [List.length] in Hn.
    destruct (regex_scan_go s2 ic) as [[p' rest']|] eqn:E; [|discriminate]. injection H as _ <-.
    eapply suffix_trans; [apply (IH s2 ic p'); [lia|exact E]|]. now exists [c; c2].
  - destruct ((c =? 34)%N && negb ic); [injection H as _ <-; apply suffix_cons|].
    match type of H with match regex_scan_go s1 ?ic' with _ => _ end = _ =>
      destruct (regex_scan_go s1 ic') as [[p' rest']|] eqn:E; [|discriminate];
      pose proof (IH s1 ic' p' rest' ltac:(lia) E) end.
    injection H as _ <-. eapply suffix_trans; [eassumption|apply suffix_cons].
Qed.

Lemma lex_regex_post (F : lex_facts) i :
  lpost i (fun p : bytes * option N => regex_compile (fst p) <> None) (lex_regex i).
Proof.
  destruct i as [|b r]; [cbn; split; [apply suffix_refl|lia]|].
  destruct (N.eq_dec b 34) as [->|N34]; [unfold lex_regex|].
  { destruct (regex_scan_go r false) as [[pat rest]|] eqn:Es; [|cbn; split; [apply suffix_cons|lia]].
    apply regex_scan_go_suffix with (n := length r) in Es; [|lia].
    destruct (regex_compile pat) eqn:Ec; cbn.
    - split; [rewrite Ec; discriminate|]. eapply suffix_trans; [exact Es|apply suffix_cons].
    - split; [apply suffix_cons|lia]. }
  destruct (N.eq_dec b 114) as [->|N114]; [unfold lex_regex|].
  { eapply lpost_bind; [eapply lpost_sub; [apply (lf_raw_str F)|apply suffix_cons]|].
    intros p rest _ Hr. destruct (regex_compile (fst p)) eqn:Ec; cbn.
    - split; [rewrite Ec; discriminate|exact Hr].
    - split; [exact Hr|lia]. }
  rewrite lex_regex_other by assumption. split; [apply suffix_refl|lia].
Qed.

Lemma wildcard_compile_ok lim p t :
  wildcard_compile lim p = Some t -> wparse p = Some t /\ has_double_star t = false.
Proof.
  unfold wildcard_compile. destruct (wparse p) as [t'|]; [|discriminate].
  destruct (match lim with Some l => _ | None => false end); [discriminate|].
  destruct (has_double_star t') eqn:E; [discriminate|]. intros H. injection H as <-. auto.
Qed.

Lemma lex_wildcard_post (F : lex_facts) st i :
  lpost i (fun p : bytes * bytes_format =>
             exists t, wparse (fst p) = Some t /\ has_double_star t = false) (lex_wildcard st i).
Proof.
  unfold lex_wildcard. eapply lpost_bind; [apply (lf_quoted_or_raw F)|].
  intros p rest _ Hr. destruct (wildcard_compile (st_star_limit st) (fst p)) as [t|] eqn:E; cbn.
  - split; [|exact Hr]. exists t. eapply wildcard_compile_ok; eauto.
  - split; [apply suffix_refl|lia].
Qed.

Lemma lex_rhs_post (F : lex_facts) t i :
  t = TInt \/ t = TBytes \/ t = TIp ->
  lpost i (fun r => rhs_ty r = t) (lex_rhs t i).
Proof.
  intros [->|[->| ->]]; unfold lex_rhs.
  - eapply lpost_map; [apply (lf_int F)|]. reflexivity.
  - eapply lpost_map; [apply (lf_bytes F)|]. reflexivity.
  - eapply lpost_map; [apply (lf_ip F)|]. reflexivity.
Qed.

Lemma depth_lexprs_app l e :
  depth_lexprs (lexprs_of_list (l ++ [e])) = Nat.max (depth_lexprs (lexprs_of_list l)) (depth_lexpr e).
Proof.
  induction l as [|x l IH]; cbn [app lexprs_of_list depth_lexprs]; [lia|]. rewrite IH. lia.
Qed.

Lemma depth_combine lhs op rhs :
  depth_lexpr (combine lhs op rhs) = Nat.max (depth_lexpr lhs) (depth_lexpr rhs).
Proof.
  destruct (combine_cases lhs op rhs) as [->|(o & items & -> & ->)]; cbn [depth_lexpr depth_lexprs]; [lia|].
  rewrite depth_lexprs_app, lexprs_of_to_list. reflexivity.
Qed.

Lemma wt_combine sch lhs op rhs t :
  wt_lexpr sch lhs = Some t -> wt_lexpr sch rhs = Some t -> wt_lexpr sch (combine lhs op rhs) = Some t.
Proof.
  intros Hl Hr. destruct (combine_cases lhs op rhs) as [->|(o & items & -> & ->)].
  { cbn [wt_lexpr wt_lexprs]. rewrite Hl, Hr, ty_eqb_refl. reflexivity. }
  cbn [wt_lexpr] in Hl |- *. destruct items as [|e0 rest]; [discriminate|].
  cbn [lexprs_to_list app lexprs_of_list].
  destruct (wt_lexpr sch e0) as [t0|]; [|discriminate].
  destruct (wt_lexprs sch t0 rest) eqn:Er; [|discriminate]. injection Hl as ->.
  rewrite wt_lexprs_app; [reflexivity| |exact Hr]. now rewrite lexprs_of_to_list.
Qed.

Lemma wt_cmp_prim sch lhs t op :
  wt_iexpr sch lhs = Some t -> (t = TInt \/ t = TBytes \/ t = TIp) -> op_ok sch t op = true ->
  exists t', wt_lexpr sch (EComparison lhs op) = Some t'.
Proof.
  intros Hl Ht Hop. cbn [wt_lexpr]. rewrite Hl.
  destruct Ht as [->|[->| ->]]; cbn [is_prim andb]; rewrite Hop; eauto.
Qed.

Definition sig_full (d : fn_def) : list (arg_kind * ty) :=
  fn_params d ++ map (fun p => (fst p, type_of (snd p))) (fn_opt_params d).

Lemma kind_matches_ok k a : kind_matches k a = true -> kind_ok k a = true.
Proof. destruct k, a; cbn; auto. Qed.

(* the loop invariant of the argument loop *)
Definition acc_inv (sch : scheme) (def : fn_def) (acc : list arg) : Prop :=
  Forall (fun a => arg_map_each_count a = 0%nat) (tl acc) /\
  if fn_variadic_same def then
    match acc with
    | [] => True
    | p0 :: _ => exists t0, match t0 with TArray _ | TBytes => True | _ => False end /\
                            Forall (fun a => wt_arg sch a = Some t0) acc
    end
  else
    (length acc <= length (sig_full def))%nat /\
    Forall2 (fun a (kt : arg_kind * ty) => kind_ok (fst kt) a = true /\ wt_arg sch a = Some (snd kt))
            acc (firstn (length acc) (sig_full def)).

(* without a variadic tail, check_param looks the next argument up in the full signature *)
Lemma check_param_sig sch def acc a t :
  fn_variadic_same def = false ->
  check_param sch def acc a t =
  match nth_error (sig_full def) (length acc) with
  | Some (k, pt) => if negb (kind_matches k a) then PcKind else if ty_eqb t pt then PcOk else PcType
  | None => PcUnreachable
  end.
Proof.
  intros Hv. unfold check_param, sig_full. rewrite Hv.
  destruct (nth_error (fn_params def) (length acc)) as [[k pt]|] eqn:E.
  - rewrite nth_error_app1, E; [reflexivity|]. apply nth_error_Some. now rewrite E.
  - apply nth_error_None in E. rewrite nth_error_app2, nth_error_map by exact E.
    now destruct (nth_error (fn_opt_params def) _) as [[k dv]|].
Qed.

(* within the arity and with typed predecessors, the signature has an entry for the next argument *)
Lemma check_param_total sch def acc a t :
  acc_inv sch def acc ->
  negb (fn_variadic_same def) && Nat.leb (length (fn_params def) + length (fn_opt_params def)) (length acc) = false ->
  check_param sch def acc a t <> PcUnreachable.
Proof.
  intros [_ Hinv] Hcount Ecp. destruct (fn_variadic_same def) eqn:Hv.
  - unfold check_param in Ecp. rewrite Hv in Ecp. destruct acc as [|p0 acc']; [destruct t; discriminate Ecp|].
    destruct Hinv as (t0 & _ & Hall). inversion Hall as [|? ? Hp0 _]; subst.
    rewrite (wt_ty_arg sch p0 t0 Hp0) in Ecp. destruct (ty_eqb t t0); discriminate Ecp.
  - rewrite (check_param_sig _ _ _ _ _ Hv) in Ecp. apply Nat.leb_gt in Hcount.
    destruct (nth_error (sig_full def) (length acc)) as [[k pt]|] eqn:E.
    + destruct (negb (kind_matches k a)); [discriminate|]. destruct (ty_eqb t pt); discriminate.
    + apply nth_error_None in E. unfold sig_full in E. rewrite app_length, map_length in E. lia.
Qed.

Lemma acc_inv_step sch def acc a t :
  acc_inv sch def acc -> wt_arg sch a = Some t ->
  (arg_map_each_count a = 0%nat \/ acc = []) ->
  check_param sch def acc a t = PcOk ->
  acc_inv sch def (acc ++ [a]).
Proof.
  intros [Htl Hinv] Ha Hm Hc. split.
  { destruct acc as [|p0 acc']; cbn [app tl]; [constructor|]. cbn [tl] in Htl.
    apply Forall_app. split; [exact Htl|]. constructor; [|constructor]. destruct Hm as [Hm|Hm]; [exact Hm|discriminate]. }
  destruct (fn_variadic_same def) eqn:Hv.
  - unfold check_param in Hc. rewrite Hv in Hc. destruct acc as [|p0 acc']; cbn [app].
    + exists t. split; [destruct t; try discriminate Hc; exact I|]. constructor; [exact Ha|constructor].
    + destruct Hinv as (t0 & Ht0 & Hall). exists t0. split; [exact Ht0|].
      change (p0 :: acc' ++ [a]) with ((p0 :: acc') ++ [a]). apply Forall_app. split; [exact Hall|].
      constructor; [|constructor]. inversion Hall as [|? ? Hp0 _]; subst.
      rewrite (wt_ty_arg sch p0 t0 Hp0) in Hc. destruct (ty_eqb t t0) eqn:Et; [|discriminate].
      apply ty_eqb_eq in Et. now subst t0.
  - destruct Hinv as [Hlen Hf2]. rewrite (check_param_sig _ _ _ _ _ Hv) in Hc.
    destruct (nth_error (sig_full def) (length acc)) as [[k pt]|] eqn:Hn; [|discriminate].
    destruct (kind_matches k a) eqn:Hk; [|discriminate]. destruct (ty_eqb t pt) eqn:Et; [|discriminate].
    apply ty_eqb_eq in Et. subst pt. apply kind_matches_ok in Hk.
    assert (Hlt : (length acc < length (sig_full def))%nat) by (apply nth_error_Some; now rewrite Hn).
    rewrite app_length. cbn [length]. split; [lia|].
    replace (length acc + 1)%nat with (S (length acc)) by lia. rewrite (firstn_S_nth _ _ _ Hn).
    apply Forall2_app; [exact Hf2|]. constructor; [|constructor]. cbn [fst snd]. auto.
Qed.

Lemma args_to_of_list l : args_to_list (args_of_list l) = l.
Proof. induction l as [|x l IH]; cbn; [reflexivity|now rewrite IH]. Qed.

Lemma depth_args_of_list l n :
  Forall (fun a => (depth_arg a <= n)%nat) l -> (depth_args (args_of_list l) <= n)%nat.
Proof. induction 1 as [|x l Hx _ IH]; cbn [args_of_list depth_args]; lia. Qed.

Lemma wt_args_sig_of sch acc : forall sig,
  Forall2 (fun a (kt : arg_kind * ty) => kind_ok (fst kt) a = true /\ wt_arg sch a = Some (snd kt))
          acc (firstn (length acc) sig) ->
  (length acc <= length sig)%nat ->
  wt_args_sig sch sig (args_of_list acc) = true.
Proof.
  induction acc as [|a acc IH]; intros sig H Hl; cbn [args_of_list wt_args_sig]; [reflexivity|].
  destruct sig as [|[k t] sig']; [cbn in Hl; lia|]. cbn [length firstn] in H.
  inversion H as [|? ? ? ? [Hk Ht] Hrest]; subst. cbn [fst snd] in *. rewrite Hk, Ht, ty_eqb_refl. cbn.
  apply IH; [exact Hrest|cbn in Hl; lia].
Qed.

Lemma wt_args_same_of sch t acc :
  acc <> [] -> Forall (fun a => wt_arg sch a = Some t) acc ->
  wt_args_same sch (args_of_list acc) = Some (Some t, length acc).
Proof.
  induction acc as [|a acc IH]; intros Hne Hall; [contradiction|].
  inversion Hall as [|? ? Ha Hr]; subst. cbn [args_of_list wt_args_same length]. rewrite Ha.
  destruct acc as [|b acc'].
  - reflexivity.
  - rewrite IH by (try discriminate; exact Hr). rewrite ty_eqb_refl. reflexivity.
Qed.

Lemma acc_inv_final sch fn def acc :
  fn_of sch fn = Some def -> acc_inv sch def acc ->
  ((if fn_variadic_same def then 2 else length (fn_params def)) <= length acc)%nat ->
  exists t, wt_iexpr sch (ICall fn (args_of_list acc) []) = Some t.
Proof.
  intros Hfn [Htl Hinv] Hcount. cbn [wt_iexpr]. rewrite Hfn, args_to_of_list.
  assert (Hm : forallb (fun x => Nat.eqb (arg_map_each_count x) 0) (tl acc) = true).
  { apply forallb_forall. intros x Hx. rewrite Forall_forall in Htl. rewrite (Htl x Hx). reflexivity. }
  rewrite Hm. cbn [negb ty_index_ok].
  destruct (fn_variadic_same def).
  - destruct acc as [|p0 acc']; [cbn in Hcount; lia|]. destruct Hinv as (t0 & Ht0 & Hall).
    rewrite (wt_args_same_of sch t0 (p0 :: acc')) by (try discriminate; exact Hall).
    apply Nat.leb_le in Hcount. rewrite Hcount.
    destruct t0; try contradiction; cbn [andb]; eauto.
  - destruct Hinv as [Hlen Hf2]. unfold sig_full in *.
    rewrite (wt_args_sig_of sch acc _ Hf2 Hlen).
    apply Nat.leb_le in Hcount. rewrite Hcount. rewrite app_length, map_length in Hlen.
    apply Nat.leb_le in Hlen. rewrite Hlen. cbn [andb]. eauto.
Qed.

Lemma wt_call_idx sch fn a idx t t' :
  wt_iexpr sch (ICall fn a []) = Some t -> ty_index_ok t idx = Some t' ->
  wt_iexpr sch (ICall fn a idx) = Some t'.
Proof.
  cbn [wt_iexpr]. destruct (fn_of sch fn) as [d|]; [|discriminate].
  destruct (negb _); [discriminate|].
  match goal with |- match ?X with _ => _ end = _ -> _ => destruct X as [ret|] end; [|discriminate].
  cbn [ty_index_ok]. intros H. injection H as ->. auto.
Qed.

Lemma wt_call_ty sch fn a t : wt_iexpr sch (ICall fn a []) = Some t -> ty_call sch fn a = Some t.
Proof.
  intros H. apply wt_ty_iexpr in H. cbn [ty_iexpr] in H. unfold ty_call.
  destruct (ty_call_of sch fn a (ty_args_first sch a)) as [t0|]; [|discriminate]. exact H.
Qed.

Section Main.
Variable sch : scheme.
Variable st : settings.
Variable w : bytes.
Variable F : lex_facts.
Local Notation M := (N.to_nat (st_max_depth st)).
Local Notation maxd := (st_max_depth st).

Definition okL (d : N) (e : lexpr) : Prop :=
  (exists t, wt_lexpr sch e = Some t) /\ (N.to_nat d + depth_lexpr e <= M)%nat.
Definition okI (d : N) (e : iexpr) : Prop :=
  (exists t, wt_iexpr sch e = Some t) /\ (N.to_nat d + depth_iexpr e <= M)%nat.
Definition okA (d : N) (a : arg) : Prop :=
  (exists t, wt_arg sch a = Some t) /\ (N.to_nat d + depth_arg a <= M)%nat.
Definition okC (d : N) (fn : nat) (a : args) : Prop :=
  (exists t, wt_iexpr sch (ICall fn a []) = Some t) /\ (N.to_nat d + depth_args a <= M)%nat.
Definition okAs (d : N) (def : fn_def) (l : list arg) : Prop :=
  acc_inv sch def l /\ Forall (fun a => (N.to_nat d + depth_arg a <= M)%nat) l.
Definition mandatory (def : fn_def) : nat :=
  if fn_variadic_same def then 2%nat else length (fn_params def).

Record IHs (f : nat) : Prop := {
  ih_logical : forall d input, (d <= maxd)%N -> suffix input w ->
      lpost w (okL d) (lex_logical sch st f d input);
  ih_more : forall d lhs minp la, (d <= maxd)%N -> okL d lhs -> suffix (snd la) w ->
      lpost w (okL d) (lex_more sch st f d lhs minp la);
  ih_inner : forall d rhs rest op, (d <= maxd)%N -> okL d rhs -> suffix rest w ->
      lpost w (fun p : lexpr * (option logop * bytes) => okL d (fst p) /\ suffix (snd (snd p)) w)
            (lex_inner sch st f d rhs rest op);
  ih_simple : forall d input, (d <= maxd)%N -> suffix input w ->
      lpost w (okL d) (lex_simple sch st f d input);
  ih_with_lhs : forall d input lhs, okI d lhs -> suffix input w ->
      lpost w (okL d) (lex_with_lhs sch st f d input lhs);
  ih_index : forall d input, (d <= maxd)%N -> suffix input w ->
      lpost w (okI d) (lex_index_expr sch st f d input);
  ih_call : forall d input fn, (d <= maxd)%N -> fn_of sch fn <> None -> suffix input w ->
      lpost w (okC d fn) (lex_call sch st f d input fn);
  ih_call_args : forall d input def acc, (d <= maxd)%N -> okAs d def acc -> suffix input w ->
      lpost w (fun l => okAs d def l /\ (mandatory def <= length l)%nat)
            (lex_call_args sch st f d input def acc);
  ih_arg : forall d input, (d <= maxd)%N -> suffix input w ->
      lpost w (okA d) (lex_arg sch st f d input);
}.

Lemma increase_bind {B} d at_ (Q : B -> Prop) (k : N -> bytes -> lres B) :
  suffix at_ w -> ((d < maxd)%N -> lpost w Q (k (d + 1)%N [])) -> lpost w Q (lbind (increase st d at_) k).
Proof.
  intros Hs Hk. destruct (increase_cases st d at_) as [[_ ->]|[Hlt ->]]; cbn [lbind]; [split; [exact Hs|lia]|auto].
Qed.

Lemma okL_S d e e' :
  okL (d + 1) e -> wt_lexpr sch e' = wt_lexpr sch e -> depth_lexpr e' = S (depth_lexpr e) -> okL d e'.
Proof. intros [Ht Hd] Hw Hdep. unfold okL. rewrite Hw, Hdep. split; [exact Ht|lia]. Qed.

Lemma okL_combine d lhs op rhs tl tr :
  okL d lhs -> okL d rhs -> ty_lexpr sch lhs = Some tl -> ty_lexpr sch rhs = Some tr ->
  types_combinable tl tr = true -> okL d (combine lhs op rhs).
Proof.
  intros [[t1 H1] D1] [[t2 H2] D2] E1 E2 Hc.
  rewrite (wt_ty_lexpr sch lhs t1 H1) in E1. injection E1 as <-.
  rewrite (wt_ty_lexpr sch rhs t2 H2) in E2. injection E2 as <-.
  (* both are Bool or Array Bool, and of these only equal ones combine *)
  assert (t1 = t2) as <-.
  { destruct (wt_lres sch lhs t1 H1) as [->| ->], (wt_lres sch rhs t2 H2) as [->| ->]; try discriminate Hc; reflexivity. }
  split; [exists t1; now apply wt_combine|rewrite depth_combine; lia].
Qed.

Lemma step_logical f : IHs f -> forall d input, (d <= maxd)%N -> suffix input w ->
  lpost w (okL d) (lex_logical sch st (S f) d input).
Proof.
  intros H d input Hd Hs. cbn [lex_logical].
  eapply lpost_bind; [apply (ih_simple f H); assumption|].
  intros lhs rest Hl Hr. apply (ih_more f H); [assumption|assumption|sfx].
Qed.

Lemma step_more f : IHs f -> forall d lhs minp la, (d <= maxd)%N -> okL d lhs -> suffix (snd la) w ->
  lpost w (okL d) (lex_more sch st (S f) d lhs minp la).
Proof.
  intros H d lhs minp la Hd Hl Hs. cbn [lex_more]. destruct (fst la) as [op|]; [|split; assumption].
  eapply lpost_bind; [apply (ih_simple f H); assumption|]. intros rhs rhs_rest Hrhs Hrr.
  eapply lpost_bind; [apply (ih_inner f H d rhs rhs_rest op); assumption|].
  intros [rhs' la'] rr' [Hrhs' Hla'] Hrr'. cbn [fst snd] in *.
  pose proof Hl as [[tl Etl%wt_ty_lexpr] _]. pose proof Hrhs' as [[tr Etr%wt_ty_lexpr] _]. rewrite Etl, Etr.
  destruct (types_combinable tl tr) eqn:Ec; [|err].
  apply (ih_more f H); [assumption|eapply okL_combine; eauto|]. destruct (Nat.ltb _ _); assumption.
Qed.

Lemma step_inner f : IHs f -> forall d rhs rest op, (d <= maxd)%N -> okL d rhs -> suffix rest w ->
  lpost w (fun p : lexpr * (option logop * bytes) => okL d (fst p) /\ suffix (snd (snd p)) w)
        (lex_inner sch st (S f) d rhs rest op).
Proof.
  intros H d rhs rest op Hd Hrhs Hs. cbn [lex_inner]. cbv zeta. destruct (Nat.leb _ _).
  - cbn. split; [split; [assumption|sfx]|assumption].
  - eapply lpost_bind; [apply (ih_more f H); [assumption|assumption|sfx]|].
    intros rhs' rest' Hrhs' Hr'. apply (ih_inner f H); assumption.
Qed.

Lemma quant_arg_post d q i a r2 : okA (d + 1) a -> suffix i w -> suffix r2 w ->
  lpost w (okL d) (quant_arg sch q i a r2).
Proof.
  intros [[t Ht] Hdep] Hi Hr2. unfold quant_arg.
  assert (Hdone : forall e, okL d e ->
            lpost w (okL d) (lbind (expect [41] (skip_space r2)) (fun _ rest3 => LOk e rest3))).
  { intros e He. bindL expect_post. split; assumption. }
  destruct a as [ie|r|le]; cbn [wt_arg depth_arg] in Ht, Hdep; [|err|].
  - destruct (Nat.ltb 0 (map_each_count (iexpr_idx ie))) eqn:Em; [err|].
    rewrite (wt_ty_iexpr sch ie t Ht). destruct t as [| | | |[]|]; try err.
    apply Hdone. split; [|cbn [depth_lexpr]; lia]. exists TBool. cbn [wt_lexpr]. rewrite Ht.
    apply Nat.ltb_ge in Em. replace (map_each_count (iexpr_idx ie)) with 0%nat by lia. reflexivity.
  - rewrite (wt_ty_lexpr sch le t Ht). destruct t as [| | | |[]|]; try err.
    apply Hdone. split; [|cbn [depth_lexpr]; lia]. exists TBool. cbn [wt_lexpr]. rewrite Ht. reflexivity.
Qed.

Lemma step_simple f : IHs f -> forall d input, (d <= maxd)%N -> suffix input w ->
  lpost w (okL d) (lex_simple sch st (S f) d input).
Proof.
  intros H d input Hd Hs. rewrite lex_simple_S.
  destruct (starts_with [40] input) as [rest|] eqn:E1.
  { apply increase_bind; [assumption|]. intros Hlt.
    eapply lpost_bind; [apply (ih_logical f H); [lia|sfx]|]. intros e rest1 He Hr1.
    bindL expect_post. split; [|assumption]. now apply (okL_S d e). }
  destruct (lex_alts unary_ops input) as [[u rest]|] eqn:E2.
  { apply increase_bind; [assumption|]. intros Hlt.
    eapply lpost_bind; [apply (ih_simple f H); [lia|sfx]|]. intros e rest1 He Hr1.
    split; [|assumption]. now apply (okL_S d e). }
  destruct (lex_quant_call input) as [[q rest]|] eqn:E3.
  { apply increase_bind; [sfx|]. intros Hlt. bindL expect_post.
    eapply lpost_bind; [apply (ih_arg f H (d + 1)%N); [lia|sfx]|]. intros a rest2 Ha Hr2.
    apply quant_arg_post; [assumption|sfx|assumption]. }
  eapply lpost_bind; [apply (ih_index f H); assumption|].
  intros lhs rest Hl Hr. apply (ih_with_lhs f H); assumption.
Qed.

Lemma step_index f : IHs f -> forall d input, (d <= maxd)%N -> suffix input w ->
  lpost w (okI d) (lex_index_expr sch st (S f) d input).
Proof.
  intros H d input Hd Hs. cbn [lex_index_expr]. bindL (lf_ident_name F).
  destruct (scheme_get sch x) as [[i|i]|] eqn:Eg; [| |split; assumption].
  - pose proof (scheme_get_field _ _ _ Eg) as Hf. destruct (field_ty sch i) as [t|] eqn:Et; [|contradiction].
    eapply lpost_map; [apply (lex_indexes_post F sch st w t); [assumption|reflexivity]|].
    intros idx [t' Ht']. split; [|cbn [depth_iexpr]; lia]. exists t'. cbn [wt_iexpr]. rewrite Et. exact Ht'.
  - apply increase_bind; [sfx|]. intros Hlt.
    eapply lpost_bind; [apply (ih_call f H (d + 1)%N rest i); [lia|eapply scheme_get_fn; eauto|assumption]|].
    intros a rest1 [[t Ht] Hdep] Hr1. rewrite (wt_call_ty sch i a t Ht).
    eapply lpost_map; [apply (lex_indexes_post F sch st w t); [assumption|reflexivity]|].
    intros idx [t' Ht']. split; [exists t'; eapply wt_call_idx; eauto|]. cbn [depth_iexpr]. lia.
Qed.

Lemma step_call f : IHs f -> forall d input fn, (d <= maxd)%N -> fn_of sch fn <> None -> suffix input w ->
  lpost w (okC d fn) (lex_call sch st (S f) d input fn).
Proof.
  intros H d input fn Hd Hfn Hs. cbn [lex_call]. destruct (fn_of sch fn) as [def|] eqn:Ef; [|contradiction].
  bindL expect_post. eapply lpost_map.
  { apply (ih_call_args f H d (skip_space rest) def []); [assumption| |sfx].
    split; [|constructor]. split; [constructor|]. destruct (fn_variadic_same def); [exact I|].
    split; [cbn; lia|constructor]. }
  intros l [[Hinv Hdep] Hcount]. split.
  - eapply acc_inv_final; eauto.
  - assert (Hl : (depth_args (args_of_list l) <= M - N.to_nat d)%nat).
    { apply depth_args_of_list. eapply Forall_impl; [|exact Hdep]. cbn. intros a Ha. lia. }
    lia.
Qed.

Lemma step_call_args f : IHs f -> forall d input def acc, (d <= maxd)%N -> okAs d def acc -> suffix input w ->
  lpost w (fun l => okAs d def l /\ (mandatory def <= length l)%nat)
        (lex_call_args sch st (S f) d input def acc).
Proof.
  intros H d input def acc Hd [Hinv Hdeps] Hs. destruct (lex_call_args_S input) as [E|E]; rewrite E.
  - unfold call_args_finish. destruct (Nat.ltb _ _) eqn:Ec; [err|]. apply Nat.ltb_ge in Ec.
    bindL expect_post. split; [|assumption]. split; [split; assumption|exact Ec].
  - unfold call_args_next. apply lpost_bind with (P := fun _ : unit => True).
    { destruct (Nat.eqb (length acc) 0); [split; [exact I|assumption]|].
      eapply lpost_sub; [apply expect_post|assumption]. }
    intros _ input1 _ Hi1.
    eapply lpost_bind; [apply (ih_arg f H d (skip_space input1)); [assumption|sfx]|].
    intros a rest [[t Ht] Hdep] Hr. unfold call_args_push.
    destruct (Nat.ltb 0 (arg_map_each_count a) && _) eqn:Em; [err|].
    destruct (negb (fn_variadic_same def) && _) eqn:Ecount; [err|].
    rewrite (wt_ty_arg sch a t Ht).
    destruct (check_param sch def acc a t) eqn:Ecp; try err.
    + apply (ih_call_args f H); [assumption| |sfx]. split.
      * eapply acc_inv_step; eauto using map_each_first_only.
      * apply Forall_app. split; [assumption|]. constructor; [exact Hdep|constructor].
    + now apply (check_param_total sch def acc a t) in Ecp.
Qed.

Definition cmp_on (lhs : iexpr) (t : ty) (e : lexpr) : Prop :=
  exists op, e = EComparison lhs op /\ (t = TInt \/ t = TBytes \/ t = TIp) /\ op_ok sch t op = true.

(* by operator: the types it applies to, then the literal *)
Lemma cmp_rhs_post lhs t input : suffix input w -> lpost w (cmp_on lhs t) (cmp_rhs sch st lhs t input).
Proof.
  intros Hs. unfold cmp_rhs.
  assert (Hprim : forall op rest, (t = TInt \/ t = TBytes \/ t = TIp) -> op_ok sch t op = true -> suffix rest w ->
             lpost w (cmp_on lhs t) (LOk (EComparison lhs op) rest)).
  { intros op rest Hp Hop Hr. split; [exists op; auto|exact Hr]. }
  destruct (lex_alts comparison_ops (skip_space input)) as [[op after_op]|] eqn:Eop; [|err].
  assert (Hao : suffix (skip_space after_op) w) by sfx.
  destruct op; cbv zeta.
  (* wildcard and strict wildcard alike *)
  6,7: destruct t; try err; bindL (lex_wildcard_post F st); apply Hprim; [auto| |assumption].
  6,7: destruct Hx as (t' & H1 & H2); cbn [op_ok]; rewrite H1, H2; reflexivity.
  - (* in: a named list, or literals in braces *)
    assert (Hlist : (t = TInt \/ t = TBytes \/ t = TIp) ->
              lpost w (cmp_on lhs t)
                (lbind (lex_list_name (skip_space after_op)) (fun name rest =>
                   match list_index sch t with
                   | Some li => LOk (EComparison lhs (CInList li name)) rest
                   | None => LErr EUnsupportedOp (skip_space input) (span_len (skip_space input) rest)
                   end))).
    { intros Hp. bindL (lf_list_name F). destruct (list_index sch t) as [li|] eqn:El; [|err].
      apply Hprim; [assumption| |assumption].
      destruct Hp as [->|[->| ->]]; cbn [op_ok]; rewrite El, Nat.eqb_refl; reflexivity. }
    destruct t; cbn [negb]; try err; (destruct (starts_with [36] (skip_space after_op)); [apply Hlist; auto|]).
    + eapply lpost_bind; [apply brace_list_post; [apply (lf_bytes F)|assumption]|].
      intros l rest _ Hr. apply Hprim; [auto|reflexivity|assumption].
    + eapply lpost_bind; [apply brace_list_post; [apply (lf_int_range F)|assumption]|].
      intros l rest _ Hr. apply Hprim; [auto|reflexivity|assumption].
    + eapply lpost_bind; [apply brace_list_post; [apply (lf_ip_range F)|assumption]|].
      intros l rest Hl Hr. apply Hprim; [auto| |assumption]. cbn [op_ok]. apply forallb_forall.
      rewrite Forall_forall in Hl. exact Hl.
  - assert (Hord : (t = TInt \/ t = TBytes \/ t = TIp) ->
              lpost w (cmp_on lhs t) (lbind (lex_rhs t (skip_space after_op))
                                            (fun r rest => LOk (EComparison lhs (COrd o r)) rest))).
    { intros Hp. bindL (fun i => lex_rhs_post F t i Hp). apply Hprim; [assumption| |assumption].
      destruct Hp as [->|[->| ->]], x; try discriminate; reflexivity. }
    destruct t; cbn [negb]; try err; apply Hord; auto.
  - destruct t; try err. bindL (lf_int F). apply Hprim; [auto|reflexivity|assumption].
  - destruct t; try err. bindL (lf_bytes F). apply Hprim; [auto|reflexivity|assumption].
  - destruct t; try err. bindL (lex_regex_post F). apply Hprim; [auto| |assumption]. cbn [op_ok].
    destruct (regex_compile (fst x)) eqn:Erx; [reflexivity|now destruct (Hx Erx)].
Qed.

Lemma step_with_lhs f d input lhs : okI d lhs -> suffix input w ->
  lpost w (okL d) (lex_with_lhs sch st (S f) d input lhs).
Proof.
  intros [[t Ht] Hdep] Hs. rewrite lex_with_lhs_S, (wt_ty_iexpr sch lhs t Ht).
  assert (Hcmp : lpost w (okL d) (cmp_rhs sch st lhs t input)).
  { eapply lpost_weaken; [apply cmp_rhs_post, Hs|apply suffix_refl|].
    intros e (op & -> & Hp & Hop). split; [eapply wt_cmp_prim; eauto|exact Hdep]. }
  (* Bool, or a container of Bool that is not iterated, is a condition by itself *)
  assert (Hbool : forall t', wt_lexpr sch (EComparison lhs CIsTrue) = Some t' ->
            lpost w (okL d) (LOk (EComparison lhs CIsTrue) input)).
  { intros t' Hw. split; [split; [eauto|exact Hdep]|exact Hs]. }
  destruct t as [| | | |[]|[]]; try exact Hcmp.
  1: { eapply Hbool. cbn [wt_lexpr]. now rewrite Ht. }
  (* Array Bool and Map Bool alike *)
  all: destruct (Nat.ltb 0 _) eqn:Em; [err|]; eapply Hbool; cbn [wt_lexpr]; rewrite Ht.
  all: apply Nat.ltb_ge in Em; now replace (map_each_count (iexpr_idx lhs)) with 0%nat by lia.
Qed.

Lemma okA_lit d r : (d <= maxd)%N -> okA d (ALit r).
Proof. intros Hd. split; [exists (rhs_ty r); reflexivity|]. cbn [depth_arg]. lia. Qed.

Lemma arg_literal_post d input : (d <= maxd)%N -> suffix input w -> lpost w (okA d) (arg_literal input).
Proof.
  intros Hd Hs. unfold arg_literal.
  pose proof (lpost_sub _ _ _ _ (lf_ip F input) Hs) as H1.
  destruct (lex_ip input); cbn [lpost] in H1 |- *; auto. { split; [now apply okA_lit|apply H1]. }
  pose proof (lpost_sub _ _ _ _ (lf_int F input) Hs) as H2.
  destruct (lex_int input); cbn [lpost] in H2 |- *; auto. { split; [now apply okA_lit|apply H2]. }
  pose proof (lpost_sub _ _ _ _ (lf_bytes F input) Hs) as H3.
  destruct (lex_bytes input); cbn [lpost] in H3 |- *; auto. { split; [now apply okA_lit|apply H3]. }
Qed.

Lemma step_arg f : IHs f -> forall d input, (d <= maxd)%N -> suffix input w ->
  lpost w (okA d) (lex_arg sch st (S f) d input).
Proof.
  intros H d input Hd Hs. destruct (lex_arg_S input) as [E|[E|E]]; rewrite E.
  - eapply lpost_map; [eapply lpost_sub; [apply (lf_bytes F)|assumption]|]. intros p _. now apply okA_lit.
  - eapply lpost_map; [apply (ih_logical f H); assumption|]. intros e He. exact He.
  - unfold arg_index_or_cmp. pose proof (ih_index f H d input Hd Hs) as Hi.
    destruct (lex_index_expr sch st f d input) as [lhs rest|k a n| |]; cbn [lpost] in Hi; auto.
    + destruct Hi as [Hl Hr]. destruct (lex_alts comparison_ops (skip_space rest)); [|split; assumption].
      eapply lpost_map; [apply (ih_with_lhs f H); assumption|]. intros e He. exact He.
    + destruct (let '(c1, c2, c3) := first_chars input in _); [exact Hi|now apply arg_literal_post].
Qed.

Lemma IHs_S f : IHs f -> IHs (S f).
Proof.
  intros H. constructor.
  - apply step_logical; assumption.
  - apply step_more; assumption.
  - apply step_inner; assumption.
  - apply step_simple; assumption.
  - apply step_with_lhs.
  - apply step_index; assumption.
  - apply step_call; assumption.
  - apply step_call_args; assumption.
  - apply step_arg; assumption.
Qed.

Theorem parser_post f : IHs f.
Proof. induction f as [|f IH]; [constructor; intros; exact I|now apply IHs_S]. Qed.

End Main.
