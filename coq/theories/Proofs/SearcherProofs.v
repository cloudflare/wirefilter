(* C10: every `contains` searcher computes exact substring search.

   For the SIMD algorithm of sliceslice (Sem/Searcher.v): [occurs p h] holds
   iff p is a prefix of [skipn i h] for some start offset i ([match_at],
   [occurs_iff]).  The `while eq != 0` loop visits exactly the set bits of
   the candidate word ([scan_candidates_spec], by [clear_lowest_bit]); bit j of that word
   says that lane j is enabled and that the first byte and the anchor byte of
   the needle stand at their places for offset start + j ([cand_mask_bit]),
   and a match is such a candidate whose remaining bytes verify
   ([match_at_cand]): so one chunk decides "some enabled lane k < L has a
   match at start + k" and reads only inside the haystack ([chunk_spec]).
   The full chunks examine the offsets below q * L, the remainder chunk, with
   the lanes that overlap them masked out, the last r ([existsb_seq_masked]);
   the width chosen from [end] never exceeds it ([lane_width_ok]). *)
From Coq Require Import List NArith Arith Bool Lia.
From WF Require Import Base.Bytes Sem.Compile Sem.Searcher Spec.C10 Proofs.ListFacts Proofs.ByteKeys
     Proofs.ScalarProofs.
Import ListNotations.
Local Open Scope nat_scope.

Lemma existsb_seq_true f a n :
  existsb f (seq a n) = true <-> exists i, a <= i < a + n /\ f i = true.
Proof.
  rewrite existsb_exists. split; intros (i & Hi & Hf); exists i; (split; [|exact Hf]).
  - apply in_seq in Hi. lia.
  - apply in_seq. lia.
Qed.

Lemma existsb_ext_in {A} (f g : A -> bool) l :
  (forall x, In x l -> f x = g x) -> existsb f l = existsb g l.
Proof.
  induction l as [|x l IH]; intros H; cbn [existsb]; [reflexivity|].
  rewrite (H x (or_introl eq_refl)), IH; [reflexivity|]. intros y Hy. apply H. now right.
Qed.

Lemma existsb_all_false {A} (f : A -> bool) l :
  (forall x, In x l -> f x = false) -> existsb f l = false.
Proof.
  intros H. rewrite (existsb_ext_in f (fun _ => false) l H). clear H. induction l as [|x l IH]; [reflexivity|exact IH].
Qed.

Lemma existsb_seq_masked f a d L :
  existsb (fun k => (d <=? k) && f (a + k)) (seq 0 L) = existsb f (seq (a + d) (L - d)).
Proof.
  apply eq_true_iff_eq. rewrite !existsb_seq_true. split.
  - intros (k & Hk & [Hdk H]%andb_true_iff). apply Nat.leb_le in Hdk. exists (a + k). split; [lia | exact H].
  - intros (i & Hi & H). exists (i - a). split; [lia|]. replace (a + (i - a)) with i by lia.
    rewrite H, andb_true_r. apply Nat.leb_le. lia.
Qed.

Lemma nth_skipn_N (m : bytes) : forall s k, nth k (skipn s m) 0%N = nth (s + k) m 0%N.
Proof.
  induction m as [|x m IH]; intros s k.
  - rewrite skipn_nil. now destruct k, s.
  - destruct s as [|s]; [reflexivity|]. apply IH.
Qed.

Lemma nth_firstn_N (m : bytes) : forall n k, k < n -> nth k (firstn n m) 0%N = nth k m 0%N.
Proof.
  induction m as [|x m IH]; intros [|n] [|k] Hk; try reflexivity; try lia. apply IH. lia.
Qed.

Lemma nth_opt_nth_error {A} (m : list A) : forall k, nth_opt m k = nth_error m k.
Proof. induction m as [|y m IH]; intros [|k]; try reflexivity. apply IH. Qed.

Lemma nth_repeat_N (a : N) L : forall k, k < L -> nth k (repeat a L) 0%N = a.
Proof. induction L as [|L IH]; intros [|k] Hk; try lia; [reflexivity|]. apply IH. lia. Qed.

Definition match_at (p h : bytes) (i : nat) : bool := is_prefix p (skipn i h).

Lemma is_prefix_app p : forall s, is_prefix p s = true <-> exists t, s = p ++ t.
Proof.
  induction p as [|x p IH]; intros s; cbn [is_prefix].
  - split; [now exists s | reflexivity].
  - destruct s as [|y s]; [split; [discriminate | now intros [t Ht]]|].
    rewrite andb_true_iff, N.eqb_eq, IH. split.
    + intros [-> [t ->]]. now exists t.
    + intros [t [= -> ->]]. split; [reflexivity | now exists t].
Qed.

Lemma is_prefix_length p s : is_prefix p s = true -> length p <= length s.
Proof. intros [t ->]%is_prefix_app. rewrite app_length. lia. Qed.

Lemma match_at_bound p h i : match_at p h i = true -> p <> [] -> i + length p <= length h.
Proof.
  unfold match_at. intros H%is_prefix_length Hp. rewrite skipn_length in H.
  destruct p as [|x p]; [congruence|]. cbn [length] in *. lia.
Qed.

Lemma occurs_iff p : forall h,
  occurs p h = true <-> exists i, i + length p <= length h /\ match_at p h i = true.
Proof.
  unfold match_at. induction h as [|y h IH]; cbn [occurs].
  - rewrite orb_false_r. split.
    + intros H. exists 0. split; [exact (is_prefix_length _ _ H) | exact H].
    + intros (i & _ & H). now rewrite skipn_nil in H.
  - rewrite orb_true_iff, IH. split.
    + intros [H | (i & Hi & H)].
      * exists 0. split; [exact (is_prefix_length _ _ H) | exact H].
      * exists (S i). split; [cbn [length]; lia | exact H].
    + intros ([|i] & Hi & H); [now left|]. right. exists i. split; [cbn [length] in Hi; lia | exact H].
Qed.

Lemma occurs_substring p h : occurs p h = true <-> substring p h.
Proof.
  rewrite occurs_iff. unfold match_at, substring. split.
  - intros (i & _ & [t Ht]%is_prefix_app). exists (firstn i h), t. rewrite <- Ht. symmetry. apply firstn_skipn.
  - intros (a & b & ->). exists (length a). split; [rewrite !app_length; lia|].
    rewrite skipn_app, skipn_all, Nat.sub_diag. apply is_prefix_app. now exists b.
Qed.

Lemma contains_spec_occurs p h : contains_spec p h = occurs p h.
Proof. symmetry. apply occurs_eq. Qed.

Lemma occurs_range p h : length p <= length h ->
  occurs p h = existsb (match_at p h) (seq 0 (length h - length p + 1)).
Proof.
  intros Hl. apply eq_true_iff_eq. rewrite occurs_iff, existsb_seq_true.
  split; intros (i & Hi & H); exists i; (split; [lia | exact H]).
Qed.

(* the `haystack.len() <= needle.size()` shortcut *)
Lemma occurs_short p h : length h <= length p -> occurs p h = bytes_eqb h p.
Proof.
  intros Hl. apply eq_true_iff_eq. rewrite occurs_iff, bytes_eqb_iff. unfold match_at. split.
  - intros (i & Hi & H). assert (i = 0) as -> by lia. cbn [skipn] in H. apply is_prefix_app in H as [t ->].
    rewrite app_length in Hl. destruct t; [apply app_nil_r | cbn [length] in Hl; lia].
  - intros ->. exists 0. split; [lia|]. apply is_prefix_app. exists []. symmetry. apply app_nil_r.
Qed.

Lemma match_at_split f t h i : i < length h ->
  match_at (f :: t) h i = (f =? nth i h 0)%N && bytes_eqb (firstn (length t) (skipn (S i) h)) t.
Proof.
  intros Hi. unfold match_at. rewrite (skipn_nth h i _ (nth_error_nth' h 0%N Hi)). cbn [is_prefix]. now rewrite is_prefix_firstn.
Qed.

Lemma cand_necessary p h i pos : match_at p h i = true -> pos < length p ->
  nth (i + pos) h 0%N = nth pos p 0%N.
Proof.
  unfold match_at. intros [t Ht]%is_prefix_app Hpos. rewrite <- nth_skipn_N, Ht. now apply app_nth1.
Qed.

(* so a match is a candidate (first byte and anchor byte in place) that verifies *)
Lemma match_at_cand f t h i pos : i < length h -> pos < S (length t) ->
  match_at (f :: t) h i =
  (f =? nth i h 0)%N && (nth pos (f :: t) 0 =? nth (i + pos) h 0)%N
  && bytes_eqb (firstn (length t) (skipn (S i) h)) t.
Proof.
  intros Hi Hpos. destruct (match_at (f :: t) h i) eqn:Hm.
  - rewrite (cand_necessary _ _ _ _ Hm Hpos), N.eqb_refl, andb_true_r, <- match_at_split by exact Hi.
    now symmetry.
  - rewrite match_at_split in Hm by exact Hi. destruct (f =? nth i h 0)%N; [|reflexivity].
    cbn [andb] in Hm. now rewrite Hm, andb_false_r.
Qed.

Lemma memchr_search_spec b h : memchr_search b h = occurs [b] h.
Proof.
  unfold memchr_search. induction h as [|x h IH]; [reflexivity|].
  cbn [memchr occurs is_prefix]. destruct (b =? x)%N; [reflexivity|].
  cbn [andb orb]. rewrite <- IH. destruct h as [|y h]; [reflexivity|].
  now destruct (memchr b (y :: h)).
Qed.

Lemma to_bitmask_bit l : forall k, N.testbit_nat (to_bitmask l) k = nth k l false.
Proof.
  induction l as [|b l IH]; intros [|k]; cbn [to_bitmask nth]; try reflexivity; rewrite <- Ntestbit_Nbit.
  - apply N.testbit_0_r.
  - rewrite Nat2N.inj_succ, N.testbit_succ_r, Ntestbit_Nbit. apply IH.
Qed.

Lemma nth_lanes_and a : forall b k,
  nth k (lanes_and a b) false = nth k a false && nth k b false.
Proof.
  induction a as [|x a IH]; intros [|y b] [|k]; cbn [lanes_and nth]; rewrite ?andb_false_r; try reflexivity.
  apply IH.
Qed.

Lemma nth_lanes_eq a : forall b k, k < length a -> k < length b ->
  nth k (lanes_eq a b) false = (nth k a 0 =? nth k b 0)%N.
Proof.
  induction a as [|x a IH]; intros b k Ha Hb; cbn [length] in Ha; [lia|].
  destruct b as [|y b]; cbn [length] in Hb; [lia|].
  destruct k as [|k]; cbn [lanes_eq nth]; [reflexivity|]. apply IH; lia.
Qed.

Lemma lanes_eq_length a : forall b, length (lanes_eq a b) = Nat.min (length a) (length b).
Proof. induction a as [|x a IH]; intros [|y b]; try reflexivity. cbn [lanes_eq length Nat.min]. now rewrite IH. Qed.

Lemma word_max_bit W j : N.testbit_nat (word_max W) j = (j <? W).
Proof.
  unfold word_max. rewrite <- Ntestbit_Nbit. destruct (Nat.ltb_spec j W).
  - apply N.ones_spec_low. lia.
  - apply N.ones_spec_high. lia.
Qed.

Lemma word_shl_max_bit W s m : word_shl W (word_max W) s = Some m ->
  forall j, N.testbit_nat m j = (s <=? j) && (j <? W).
Proof.
  unfold word_shl. destruct (s <? W); [|discriminate]. intros [= <-] j.
  rewrite Nand_semantics, word_max_bit, <- Ntestbit_Nbit.
  destruct (Nat.leb_spec s j) as [H|H].
  - rewrite N.shiftl_spec_high' by lia. rewrite <- Nat2N.inj_sub, Ntestbit_Nbit, word_max_bit.
    destruct (Nat.ltb_spec j W), (Nat.ltb_spec (j - s) W); try reflexivity; lia.
  - now rewrite N.shiftl_spec_low by lia.
Qed.

Lemma word_shl_some W a s : s < W -> exists m, word_shl W a s = Some m.
Proof. intros H. unfold word_shl. destruct (Nat.ltb_spec s W); [now eexists | lia]. Qed.

Lemma ctz_bit p : Pos.testbit_nat p (ctz_pos p) = true.
Proof. induction p as [p IH|p IH|]; cbn [ctz_pos Pos.testbit_nat]; [reflexivity | exact IH | reflexivity]. Qed.

Lemma ctz_low p : forall j, j < ctz_pos p -> Pos.testbit_nat p j = false.
Proof.
  induction p as [p IH|p IH|]; intros [|j] Hj; cbn [ctz_pos] in Hj; try lia; [reflexivity|]. apply IH. lia.
Qed.

Lemma pred_double_bits p j :
  Pos.testbit_nat (Pos.pred_double p) j =
  match j with O => true | S j' => N.testbit_nat (Pos.pred_N p) j' end.
Proof. now destruct p, j. Qed.

Lemma pred_bits p : forall j,
  N.testbit_nat (Pos.pred_N p) j =
  if j <? ctz_pos p then true else if j =? ctz_pos p then false else Pos.testbit_nat p j.
Proof.
  induction p as [p IH|p IH|]; intros [|j]; try reflexivity;
    cbn [Pos.pred_N N.testbit_nat ctz_pos]; rewrite pred_double_bits; [reflexivity|apply IH].
Qed.

(* eq & (eq - 1) clears exactly the lowest set bit *)
Lemma clear_lowest_bit p j :
  N.testbit_nat (N.land (Npos p) (N.pred (Npos p))) j =
  Pos.testbit_nat p j && negb (j =? ctz_pos p).
Proof.
  rewrite Nand_semantics, <- N.pos_pred_spec, pred_bits. cbn [N.testbit_nat].
  destruct (Nat.ltb_spec j (ctz_pos p)) as [H|H]; [now rewrite (ctz_low p j H)|].
  destruct (j =? ctz_pos p); cbn [negb]; [reflexivity|]. rewrite andb_true_r. apply andb_diag.
Qed.

(* the candidate loop answers whether some set bit of the word verifies, and
   never runs out of fuel; the induction follows it through the set bits in
   increasing order ([lo] is the least position not yet passed) *)
Lemma scan_candidates_spec W verify v : forall fuel eq lo,
  lo + fuel = W ->
  (forall j, N.testbit_nat eq j = true -> lo <= j < W) ->
  (forall j, N.testbit_nat eq j = true -> verify j = Some (v j)) ->
  scan_candidates W fuel verify eq
  = Some (existsb (fun j => N.testbit_nat eq j && v j) (seq 0 W)).
Proof.
  induction fuel as [|fuel IH]; intros [|p] lo Hlo Hb Hv; cbn [scan_candidates N.eqb];
    try (now rewrite existsb_all_false).
  - specialize (Hb (ctz_pos p) (ctz_bit p)). lia.
  - cbn [trailing_zeros]. pose proof (Hb _ (ctz_bit p)) as Hc.
    rewrite (Hv _ (ctz_bit p)). destruct (v (ctz_pos p)) eqn:Ev.
    + symmetry. f_equal. apply existsb_seq_true. exists (ctz_pos p).
      split; [lia|]. cbn [N.testbit_nat]. now rewrite ctz_bit, Ev.
    + rewrite (IH _ (S lo)); [|lia| |].
      * f_equal. apply existsb_ext_in. intros j _. rewrite clear_lowest_bit.
        cbn [N.testbit_nat]. destruct (Nat.eqb_spec j (ctz_pos p)) as [->|E]; cbn [negb].
        -- now rewrite Ev, !andb_false_r.
        -- now rewrite andb_true_r.
      * intros j Hj. rewrite clear_lowest_bit in Hj. apply andb_true_iff in Hj as [Hj1 Hj2].
        apply negb_true_iff, Nat.eqb_neq in Hj2. specialize (Hb j Hj1).
        destruct (Nat.lt_ge_cases j (ctz_pos p)) as [Hlt|Hge]; [|lia].
        rewrite (ctz_low p j Hlt) in Hj1. discriminate.
      * intros j Hj. rewrite clear_lowest_bit in Hj. apply andb_true_iff in Hj as [Hj1 _]. now apply Hv.
Qed.

Record searcher_ok (s : searcher) : Prop := {
  ok_pos : s_position s < length (s_needle s);
  ok_size : needle_size (s_size_const s) (s_needle s) = length (s_needle s);
  ok_first : nth 0 (s_needle s) 0%N = s_first s;
  ok_last : nth (s_position s) (s_needle s) 0%N = s_last s;
}.

Lemma with_position_ok sz n pos s : with_position sz n pos = Some s ->
  searcher_ok s /\ s_needle s = n /\ s_position s = pos /\ s_size_const s = sz.
Proof.
  unfold with_position. destruct (Nat.ltb_spec pos (needle_size sz n)) as [Hp|Hp]; [|discriminate].
  cbn [negb].
  destruct (negb match sz with Some k => k =? length n | None => true end) eqn:Hs; [discriminate|].
  assert (needle_size sz n = length n) as Hsz.
  { destruct sz as [k|]; [|reflexivity]. now apply negb_false_iff, Nat.eqb_eq in Hs. }
  rewrite !nth_opt_nth_error.
  destruct (nth_error n 0) as [f|] eqn:Hf; [|discriminate].
  destruct (nth_error n pos) as [l|] eqn:Hl; [|discriminate].
  intros [= <-]. repeat split; cbn; try lia; now apply nth_error_nth.
Qed.

Lemma with_position_some sz n pos : pos < length n -> (sz = None \/ sz = Some (length n)) ->
  exists s, with_position sz n pos = Some s.
Proof.
  intros Hp Hsz. unfold with_position.
  assert (needle_size sz n = length n) as -> by (now destruct Hsz as [-> | ->]).
  destruct (Nat.ltb_spec pos (length n)); [|lia].
  replace (match sz with Some k => k =? length n | None => true end) with true
    by (destruct Hsz as [-> | ->]; [reflexivity | symmetry; apply Nat.eqb_refl]).
  cbn [negb]. rewrite !nth_opt_nth_error.
  destruct (nth_error n 0) eqn:H0; [|apply nth_error_None in H0; lia].
  destruct (nth_error n pos) eqn:H1; [|apply nth_error_None in H1; lia]. now eexists.
Qed.

Lemma cmp_len_ok s : searcher_ok s ->
  cmp_len (s_size_const s) (s_needle s) = Some (length (s_needle s) - 1).
Proof.
  intros [Hp Hs _ _]. unfold cmp_len. destruct (s_size_const s) as [[|k]|] eqn:E; cbn [needle_size] in Hs.
  - lia.
  - destruct (S k <=? 16); f_equal; cbn [needle_size]; lia.
  - reflexivity.
Qed.

Lemma slice_some m off len : off + len <= length m ->
  slice m off len = Some (firstn len (skipn off m)).
Proof. intros H. unfold slice. destruct (Nat.leb_spec (off + len) (length m)); [reflexivity | lia]. Qed.

Lemma load_lanes m start L : start + L <= length m ->
  exists v, load m start L = Some v /\ length v = L /\
            forall k, k < L -> nth k v 0%N = nth (start + k) m 0%N.
Proof.
  intros H. unfold load. rewrite slice_some by exact H. eexists. split; [reflexivity|]. split.
  - rewrite firstn_length, skipn_length. lia.
  - intros k Hk. rewrite nth_firstn_N by exact Hk. apply nth_skipn_N.
Qed.

(* verification of the bytes after the first one is exact and in bounds *)
Lemma verify_spec f t h o : o + length t <= length h ->
  memcmp h o (f :: t) 1 (length t) = Some (bytes_eqb (firstn (length t) (skipn o h)) t).
Proof.
  intros H. unfold memcmp. rewrite slice_some by exact H.
  rewrite slice_some by (cbn [length]; lia). cbn [skipn]. now rewrite firstn_all.
Qed.

(* bit j of the candidate word: lane j exists and is enabled, and both
   comparisons of the lane succeed *)
Lemma cand_mask_bit L a c vf vl mask j : length vf = L -> length vl = L ->
  N.testbit_nat (N.land (to_bitmask (lanes_and (lanes_eq (splat L a) vf) (lanes_eq (splat L c) vl))) mask) j =
  (j <? L) && ((a =? nth j vf 0)%N && (c =? nth j vl 0)%N) && N.testbit_nat mask j.
Proof.
  intros Lf Ll. rewrite Nand_semantics, to_bitmask_bit, nth_lanes_and. unfold splat.
  destruct (Nat.ltb_spec j L) as [Hj|Hj].
  - now rewrite !nth_lanes_eq, !nth_repeat_N by (rewrite ?repeat_length; lia).
  - rewrite (nth_overflow (lanes_eq _ vf)); [reflexivity|]. rewrite lanes_eq_length, repeat_length. lia.
Qed.

Lemma existsb_seq_low f g L W : L <= W ->
  (forall j, j < L -> f j = g j) -> (forall j, L <= j -> f j = false) ->
  existsb f (seq 0 W) = existsb g (seq 0 L).
Proof.
  intros HLW Hlo Hhi. replace W with (L + (W - L)) by lia.
  rewrite seq_app, existsb_app, (existsb_all_false f (seq (0 + L) _)), orb_false_r.
  - apply existsb_ext_in. intros j Hj%in_seq. apply Hlo. lia.
  - intros j Hj%in_seq. apply Hhi. lia.
Qed.

(* the mask enables the lanes from the d-th on: d = 0 in a full chunk *)
Lemma chunk_spec W s L h start mask d :
  searcher_ok s -> L <= W ->
  start + L + length (s_needle s) <= S (length h) ->
  (forall j, j < L -> N.testbit_nat mask j = (d <=? j)) ->
  vector_search_in_chunk W s L h start mask
  = Some (existsb (match_at (s_needle s) h) (seq (start + d) (L - d))).
Proof.
  intros Hok HLW Hb Hm. rewrite <- existsb_seq_masked. pose proof (cmp_len_ok s Hok) as Hcl. destruct Hok as [Hp _ Hf Hl].
  unfold vector_search_in_chunk.
  destruct (s_needle s) as [|f t] eqn:En; cbn [length] in *; [lia|]. cbn [nth] in Hf.
  destruct (load_lanes h start L) as (vf & -> & Lf & Nf); [lia|].
  destruct (load_lanes h (start + s_position s) L) as (vl & -> & Ll & Nl); [lia|].
  rewrite Hcl. cbn zeta.
  set (v := fun j => bytes_eqb (firstn (length t) (skipn (S (start + j)) h)) t).
  pose proof (fun j => cand_mask_bit L (s_first s) (s_last s) vf vl mask j Lf Ll) as Hbit.
  rewrite (scan_candidates_spec W _ v W _ 0); [f_equal|reflexivity| |].
  - (* a set bit is an enabled candidate below L; a match is a candidate that verifies *)
    apply existsb_seq_low; [exact HLW| |].
    + intros j Hj. rewrite Hbit, Hm, Nf, Nl, (match_at_cand f t h (start + j) (s_position s)) by lia.
      replace (j <? L) with true by (symmetry; now apply Nat.ltb_lt).
      replace (start + j + s_position s) with (start + s_position s + j) by lia. rewrite Hl, Hf. fold (v j).
      now destruct (d <=? j), (s_first s =? _)%N, (s_last s =? _)%N.
    + intros j Hj. rewrite Hbit. now replace (j <? L) with false by (symmetry; now apply Nat.ltb_ge).
  - intros j Hj. rewrite Hbit in Hj. destruct (Nat.ltb_spec j L); [lia|discriminate].
  - intros j Hj. rewrite Hbit in Hj. destruct (Nat.ltb_spec j L); [|discriminate].
    replace (S (length t) - 1) with (length t) by lia. replace (start + 1 + j) with (S (start + j)) by lia.
    apply verify_spec. lia.
Qed.

Lemma chunks_loop_spec W s L h : searcher_ok s -> L <= W -> forall count start,
  start + count * L + length (s_needle s) <= S (length h) ->
  chunks_loop W s L h count start
  = Some (existsb (match_at (s_needle s) h) (seq start (count * L))).
Proof.
  intros Hok HL. induction count as [|count IH]; intros start Hb; cbn [chunks_loop]; [reflexivity|].
  cbn [Nat.mul] in *.
  rewrite (chunk_spec W s L h start (word_max W) 0 Hok); [|lia|lia|].
  - rewrite Nat.add_0_r, Nat.sub_0_r, seq_app, existsb_app.
    destruct (existsb (match_at (s_needle s) h) (seq start L)); [reflexivity|]. now rewrite IH by lia.
  - intros j Hj. rewrite word_max_bit. apply Nat.ltb_lt. lia.
Qed.

(* for every lane width L > 0 (that fits the mask word and the search range),
   every anchor, every haystack *)
Lemma vector_search_spec W s L h : searcher_ok s -> 0 < L <= W ->
  length (s_needle s) <= length h ->
  L <= length h - length (s_needle s) + 1 ->
  vector_search_in W s L h (length h - length (s_needle s) + 1)
  = Some (occurs (s_needle s) h).
Proof.
  intros Hok HL Hn HLe. pose proof Hok as [Hp Hs _ _].
  unfold vector_search_in. rewrite Hs, (occurs_range (s_needle s) h) by lia.
  set (m := match_at (s_needle s) h). remember (length h - length (s_needle s) + 1) as e eqn:He.
  destruct (Nat.ltb_spec (length h) (length (s_needle s))); [lia|].
  destruct (Nat.ltb_spec (length h) e); [lia|].
  destruct (Nat.eqb_spec L 0); [lia|].
  (* end = q full chunks and a remainder of r offsets *)
  pose proof (Nat.div_mod e L ltac:(lia)) as Hdm. pose proof (Nat.mod_upper_bound e L ltac:(lia)) as Hr.
  rewrite (Nat.mul_comm L) in Hdm. set (q := e / L) in *. set (r := e mod L) in *.
  rewrite (chunks_loop_spec W s L h Hok (proj2 HL) q 0) by lia. fold m.
  replace (seq 0 e) with (seq 0 (q * L + r)) by (f_equal; lia). rewrite seq_app, existsb_app. cbn [Nat.add].
  destruct (existsb m (seq 0 (q * L))); [reflexivity|]. cbn [orb].
  destruct (Nat.ltb_spec 0 r).
  - (* the last L offsets again, those of the full chunks masked out *)
    destruct (Nat.ltb_spec e L); [lia|].
    destruct (word_shl_some W (word_max W) (L - r)) as [mask Hmask]; [lia|]. rewrite Hmask.
    rewrite (chunk_spec W s L h (e - L) mask (L - r) Hok); [|lia|lia|].
    + fold m. do 3 f_equal; lia.
    + intros j Hj. rewrite (word_shl_max_bit W _ _ Hmask). replace (j <? W) with true; [apply andb_true_r|].
      symmetry. apply Nat.ltb_lt. lia.
  - now replace r with 0 by lia.
Qed.

Lemma lane_width_ok e : 2 <= e -> exists L, lane_width e = Some L /\ 0 < L <= 32 /\ L <= e.
Proof.
  intros He. unfold lane_width.
  destruct (Nat.ltb_spec e 2); [lia|].
  destruct (Nat.ltb_spec e 4); [exists 2; split; [reflexivity|lia]|].
  destruct (Nat.ltb_spec e 8); [exists 4; split; [reflexivity|lia]|].
  destruct (Nat.ltb_spec e 16); [exists 8; split; [reflexivity|lia]|].
  destruct (Nat.ltb_spec e 32); [exists 16; split; [reflexivity|lia]|].
  exists 32. split; [reflexivity|lia].
Qed.

Lemma inlined_search_spec s h : searcher_ok s ->
  inlined_search_in s h = Some (occurs (s_needle s) h).
Proof.
  intros Hok. pose proof Hok as [Hp Hs _ _]. unfold inlined_search_in. rewrite Hs.
  destruct (Nat.leb_spec (length h) (length (s_needle s))) as [Hle|Hgt].
  - now rewrite occurs_short by exact Hle.
  - destruct (lane_width_ok (length h - length (s_needle s) + 1)) as (L & -> & HL & HLe); [lia|].
    apply vector_search_spec; try assumption; lia.
Qed.

Lemma with_position_searcher sz n pos : pos < length n -> (sz = None \/ sz = Some (length n)) ->
  exists s, with_position sz n pos = Some s /\ searcher_ok s /\ s_needle s = n.
Proof.
  intros Hp Hsz. destruct (with_position_some sz n pos Hp Hsz) as [s Hs].
  exists s. split; [exact Hs|]. now apply with_position_ok in Hs.
Qed.

Lemma dispatch_spec avx2 anchor needle hay :
  (2 <= length needle -> anchor < length needle) ->
  contains_dispatch avx2 anchor needle hay = Some (occurs needle hay).
Proof.
  intros Ha. unfold contains_dispatch.
  destruct needle as [|b [|c t]]; [now destruct hay|now rewrite memchr_search_spec|].
  destruct avx2; [|reflexivity]. set (n := b :: c :: t) in *.
  destruct (with_position_searcher (if length n <=? 16 then Some (length n) else None) n anchor)
    as (s & -> & Hok & <-).
  - apply Ha. cbn [length n]. lia.
  - destruct (length n <=? 16); [now right | now left].
  - now apply inlined_search_spec.
Qed.

(* what the random number generator (or the hook) can produce:
   `rng().random_range(1..bytes.len())` *)
Definition anchor_valid (anchor : nat) (needle : bytes) : Prop :=
  2 <= length needle -> 1 <= anchor < length needle.

Lemma dispatch_full avx2 anchor needle hay :
  anchor_valid anchor needle ->
  contains_dispatch avx2 anchor needle hay = Some (contains_spec needle hay).
Proof. intros Ha. rewrite contains_spec_occurs. apply dispatch_spec. intros H%Ha. lia. Qed.

Lemma anchor_irrelevant avx2 a1 a2 needle hay :
  anchor_valid a1 needle -> anchor_valid a2 needle ->
  contains_dispatch avx2 a1 needle hay = contains_dispatch avx2 a2 needle hay.
Proof. intros H1 H2. now rewrite !dispatch_full. Qed.

Lemma avx2_switch_irrelevant a1 a2 needle hay :
  anchor_valid a1 needle -> anchor_valid a2 needle ->
  contains_dispatch true a1 needle hay = contains_dispatch false a2 needle hay.
Proof. intros H1 H2. now rewrite !dispatch_full. Qed.

Lemma single_byte_spec avx2 anchor b hay :
  contains_dispatch avx2 anchor [b] hay = Some (existsb (N.eqb b) hay).
Proof.
  cbn [contains_dispatch]. rewrite memchr_search_spec. f_equal.
  induction hay as [|x h IH]; [reflexivity|]. cbn [occurs is_prefix existsb]. now rewrite IH, andb_true_r.
Qed.
