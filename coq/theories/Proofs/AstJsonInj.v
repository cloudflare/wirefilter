(* C07, part 4: the document determines the structure.  For filters whose
   literal kinds are decided by the typing rules ([lits_typed]) over a scheme
   with distinct names, equal JSON documents come from structurally equal
   filters.  How an address is written is std's business: the two facts used
   about [ip_text] are hypotheses of the section and are discharged in
   Proofs/IpTextInj.v. *)
From Coq Require Import List ZArith String.
From WF Require Import Base.Bytes Lang.Types Lang.Ast Sem.TypeCodec Sem.Compile Sem.AstJson Spec.C07
     Proofs.ListFacts Proofs.AstJsonProofs Proofs.JsonPrintProofs.
Import ListNotations.
Local Open Scope N_scope.

Lemma idx_erase e : iexpr_idx (erase_i e) = iexpr_idx e.
Proof. destruct e; reflexivity. Qed.

Lemma arg_count_erase a : arg_map_each_count (erase_arg a) = arg_map_each_count a.
Proof. destruct a; cbn [erase_arg arg_map_each_count]; [now rewrite idx_erase|reflexivity|reflexivity]. Qed.

Lemma rhs_ty_erase r : rhs_ty (erase_rhs r) = rhs_ty r.
Proof. destruct r; reflexivity. Qed.

Lemma ty_cmp_erase idx t op : ty_cmp_of idx t (erase_cmpop op) = ty_cmp_of idx t op.
Proof. destruct op; reflexivity. Qed.

Lemma ty_erase_mut sch :
  (forall e, ty_lexpr sch (erase e) = ty_lexpr sch e) /\
  (forall l, match erase_list l with LCons e0 _ => ty_lexpr sch e0 | LNil => None end
             = match l with LCons e0 _ => ty_lexpr sch e0 | LNil => None end) /\
  (forall e, ty_iexpr sch (erase_i e) = ty_iexpr sch e) /\
  (forall a, ty_args_first sch (erase_args a) = ty_args_first sch a /\
             match erase_args a with ACons a0 _ => arg_map_each_count a0 | ANil => O end
             = match a with ACons a0 _ => arg_map_each_count a0 | ANil => O end /\
             (erase_args a = ANil <-> a = ANil)) /\
  (forall a, ty_arg sch (erase_arg a) = ty_arg sch a).
Proof.
  apply ast_mutind; cbn [erase erase_list erase_i erase_args erase_arg ty_lexpr ty_iexpr ty_args_first ty_arg]; auto.
  - intros lhs IH op. now rewrite ty_cmp_erase, idx_erase, IH.
  - intros fn a (IH1 & IH2 & IH3) idx. unfold ty_call_of. rewrite IH1.
    destruct (fn_of sch fn) as [d|]; [|reflexivity]. cbn.
    destruct (if fn_variadic_same d then ty_args_first sch a else Some (fn_ret d)) as [ret|]; [|reflexivity].
    destruct a as [|a0 r]; [reflexivity|]. cbn [erase_args] in *. now rewrite IH2.
  - repeat split; auto.
  - intros x IHx r _. repeat split; try discriminate; [exact IHx|apply arg_count_erase].
  - intros r. now rewrite rhs_ty_erase.
Qed.

Lemma ty_iexpr_erase sch e : ty_iexpr sch (erase_i e) = ty_iexpr sch e.
Proof. exact (proj1 (proj2 (proj2 (ty_erase_mut sch))) e). Qed.

(* Injectivity of serde's forms, with keys, names and contents as variables: [injection] normalises
   the terms it goes through, which is slow on the concrete strings, on the text of a [V4 _] or [V6 _]
   and on the serializer applied to a subterm. *)

Lemma bytes_of_string_inj : forall s1 s2, bytes_of_string s1 = bytes_of_string s2 -> s1 = s2.
Proof.
  induction s1 as [|c1 s1 IH]; intros [|c2 s2] H; try discriminate H; [reflexivity|].
  injection H as Hc Hs. apply (f_equal Ascii.ascii_of_N) in Hc. rewrite !Ascii.ascii_N_embedding in Hc.
  now rewrite Hc, (IH s2 Hs).
Qed.

Lemma jstr_inj n1 n2 : jstr n1 = jstr n2 -> n1 = n2.
Proof. intros [= H]. now apply bytes_of_string_inj. Qed.

Lemma JStr_inj x1 x2 : JStr x1 = JStr x2 -> x1 = x2.
Proof. now intros [= ->]. Qed.

Lemma JArr_inj l1 l2 : JArr l1 = JArr l2 -> l1 = l2.
Proof. now intros [= ->]. Qed.

Lemma struct_cons_inj k v1 r1 v2 r2 :
  ser_struct ((k, v1) :: r1) = ser_struct ((k, v2) :: r2) -> v1 = v2 /\ r1 = r2.
Proof. now intros [= -> ->]. Qed.

Lemma struct2_inj k k' v1 w1 v2 w2 :
  ser_struct [(k, v1); (k', w1)] = ser_struct [(k, v2); (k', w2)] -> v1 = v2 /\ w1 = w2.
Proof. now intros [= -> ->]. Qed.

Lemma op_rhs_inj n1 r1 n2 r2 : op_rhs n1 r1 = op_rhs n2 r2 -> n1 = n2 /\ r1 = r2.
Proof. unfold op_rhs. generalize (jkey "op"), (jkey "rhs"). intros k k' [= Hn%bytes_of_string_inj ->]. now split. Qed.

Lemma adj_tagged_inj k1 c1 k2 c2 : adj_tagged k1 c1 = adj_tagged k2 c2 -> k1 = k2 /\ c1 = c2.
Proof.
  unfold adj_tagged. generalize (jkey "kind"), (jkey "value"). intros k k' [= Hk%bytes_of_string_inj Hc].
  split; [exact Hk|]. destruct c1, c2; try discriminate Hc; [now injection Hc as ->|reflexivity].
Qed.

Lemma tagged_value_inj k1 c1 k2 c2 : adj_tagged k1 (Some c1) = adj_tagged k2 (Some c2) -> k1 = k2 /\ c1 = c2.
Proof. now intros [-> [= ->]]%adj_tagged_inj. Qed.

Lemma map_determines {A B C} (f : A -> B) (g : A -> C) : forall l1 l2,
  (forall x y, In x l1 -> In y l2 -> f x = f y -> g x = g y) -> map f l1 = map f l2 -> map g l1 = map g l2.
Proof.
  induction l1 as [|x l1 IH]; intros [|y l2] Hf H; try discriminate H; [reflexivity|].
  injection H as Hx Hl. cbn [map]. f_equal; [apply Hf; cbn; auto|apply IH; [intros; apply Hf; cbn; auto|exact Hl]].
Qed.

Lemma map_injective {A B} (f : A -> B) l1 l2 :
  (forall x y, In x l1 -> In y l2 -> f x = f y -> x = y) -> map f l1 = map f l2 -> l1 = l2.
Proof. intros Hf H. rewrite <- (map_id l1), <- (map_id l2). exact (map_determines f _ l1 l2 Hf H). Qed.

Lemma nums_inj x1 x2 : json_u8_seq x1 = json_u8_seq x2 -> x1 = x2.
Proof.
  unfold json_u8_seq. intros [= H]. apply map_injective in H; [exact H|]. intros x y _ _ [= E]. now apply N2Z.inj.
Qed.

Lemma json_bytes_inj x1 f1 x2 f2 :
  json_bytes_expr x1 f1 = json_bytes_expr x2 f2 -> x1 = x2 /\ erase_fmt x1 f1 = erase_fmt x2 f2.
Proof.
  rewrite !json_bytes_doc. unfold doc_bytes, erase_fmt.
  destruct (shown_as_text x1 f1), (shown_as_text x2 f2); intro H; try discriminate H.
  - injection H as ->. auto.
  - apply nums_inj in H. subst. auto.
Qed.

Lemma split_at_unique {A} (c : A) : forall a1 a2 r1 r2,
  ~ In c a1 -> ~ In c a2 -> a1 ++ c :: r1 = a2 ++ c :: r2 -> a1 = a2 /\ r1 = r2.
Proof.
  induction a1 as [|x a1 IH]; intros [|y a2] r1 r2 H1 H2 H; cbn [app] in H.
  - injection H as ->. auto.
  - injection H as <- _. exfalso. apply H2. now left.
  - injection H as -> _. exfalso. apply H1. now left.
  - injection H as -> H. destruct (IH a2 r1 r2) as [-> ->]; auto.
    + intro Hi. apply H1. now right.
    + intro Hi. apply H2. now right.
Qed.

Section WithIpFacts.
(* Display of std::net addresses: injective on 32 / 128 bit values, never prints a `/` *)
Hypothesis ip_text_inj : forall a c, ip_ok a -> ip_ok c -> ip_text a = ip_text c -> a = c.
Hypothesis ip_text_no_slash : forall a, ~ In 47 (ip_text a).

Lemma cidr_item_inj a n ma c m mc :
  ip_ok a -> ip_ok c ->
  JStr (cidr_text (ip_text a) n ma) = JStr (cidr_text (ip_text c) m mc) ->
  a = c /\ ((n = ma /\ m = mc) \/ (n <> ma /\ m <> mc /\ n = m)).
Proof.
  intros Ha Hc [= H]. revert H. unfold cidr_text.
  destruct (Z.eqb_spec n ma) as [->|Hn], (Z.eqb_spec m mc) as [->|Hm]; intro H.
  - split; [now apply ip_text_inj|left; auto].
  - exfalso. apply (ip_text_no_slash a). rewrite H. apply in_or_app. right. now left.
  - exfalso. apply (ip_text_no_slash c). rewrite <- H. apply in_or_app. right. now left.
  - destruct (split_at_unique (47 : N) _ _ _ _ (ip_text_no_slash a) (ip_text_no_slash c) H) as [E1 E2].
    split; [now apply ip_text_inj|right]. repeat split; auto.
    apply (f_equal (fun x => x ++ [])) in E2.
    now destruct (print_Z_inj_rest n m [] [] I I E2).
Qed.

Lemma ip_span_inj a1 z1 a2 z2 :
  ip_ok a1 /\ ip_ok z1 -> ip_ok a2 /\ ip_ok z2 ->
  json_range_incl (JStr (ip_text a1)) (JStr (ip_text z1)) = json_range_incl (JStr (ip_text a2)) (JStr (ip_text z2)) ->
  a1 = a2 /\ z1 = z2.
Proof. intros [A1 Z1] [A2 Z2] [[= Ha] [= Hz]]%struct2_inj. split; now apply ip_text_inj. Qed.

Lemma json_ip_item_inj i1 i2 :
  ip_item_ok i1 -> ip_item_ok i2 -> json_ip_item i1 = json_ip_item i2 -> i1 = i2.
Proof.
  destruct i1 as [a1 z1|a1 z1|a1 n1|a1 n1], i2 as [a2 z2|a2 z2|a2 n2|a2 n2];
    cbn [json_ip_item ip_item_ok]; intros H1 H2 H; try discriminate H.
  (* an equation between a [V4 _] and a [V6 _] closes the case *)
  1-4: now destruct (ip_span_inj _ _ _ _ H1 H2 H) as [[= ->] [= ->]].
  all: now destruct (cidr_item_inj _ _ _ _ _ _ H1 H2 H) as [[= ->] [[-> ->]|(_ & _ & ->)]].
Qed.

Lemma json_rhs_inj r1 r2 :
  rhs_ty r1 = rhs_ty r2 -> rhs_ok r1 -> rhs_ok r2 -> json_rhs r1 = json_rhs r2 -> erase_rhs r1 = erase_rhs r2.
Proof.
  destruct r1 as [z1|x1 f1|a1], r2 as [z2|x2 f2|a2]; cbn [rhs_ty rhs_ok json_rhs erase_rhs];
    intros Ht H1 H2 H; try discriminate Ht.
  - now injection H as ->.
  - destruct (json_bytes_inj _ _ _ _ H) as [-> ->]. reflexivity.
  - unfold json_ip in H. injection H as H. f_equal. now apply ip_text_inj.
Qed.

Lemma json_index_inj i1 i2 : json_index i1 = json_index i2 -> i1 = i2.
Proof.
  destruct i1 as [n1|k1|], i2 as [n2|k2|]; cbn [json_index]; intros [Hk Hc]%adj_tagged_inj;
    try discriminate Hk; [ | |reflexivity].
  - injection Hc as Hc%N2Z.inj. now subst.
  - now injection Hc as ->.
Qed.

Lemma with_indexes_inj j1 idx1 j2 idx2 :
  (forall l, j1 <> JArr l) -> (forall l, j2 <> JArr l) ->
  with_indexes j1 idx1 = with_indexes j2 idx2 -> j1 = j2 /\ idx1 = idx2.
Proof.
  intros N1 N2. destruct idx1 as [|i1 r1], idx2 as [|i2 r2]; cbn [with_indexes]; intro H.
  - auto.
  - now apply N1 in H.
  - symmetry in H. now apply N2 in H.
  - injection H as -> Hi Hr. split; [reflexivity|]. f_equal; [now apply json_index_inj|].
    apply (map_injective json_index); [|exact Hr]. intros x y _ _. apply json_index_inj.
Qed.


Lemma ordop_name_inj o1 o2 : bytes_of_string (ordop_name o1) = bytes_of_string (ordop_name o2) -> o1 = o2.
Proof. intros H%bytes_of_string_inj. destruct o1, o2; (reflexivity || discriminate H). Qed.
Lemma logop_name_inj o1 o2 : logop_name o1 = logop_name o2 -> o1 = o2.
Proof. destruct o1, o2; intro H; (reflexivity || discriminate H). Qed.
Lemma quant_name_inj q1 q2 : quant_name q1 = quant_name q2 -> q1 = q2.
Proof. destruct q1, q2; intro H; (reflexivity || discriminate H). Qed.

Lemma int_ranges_inj l1 l2 : map json_int_range l1 = map json_int_range l2 -> l1 = l2.
Proof. apply map_injective. intros [a z] [a2 z2] _ _ [= -> ->]. reflexivity. Qed.

Lemma bytes_items_inj l1 l2 :
  map (fun p => json_bytes_expr (fst p) (snd p)) l1 = map (fun p => json_bytes_expr (fst p) (snd p)) l2 ->
  map (fun p => (fst p, erase_fmt (fst p) (snd p))) l1 = map (fun p => (fst p, erase_fmt (fst p) (snd p))) l2.
Proof. apply map_determines. intros x y _ _ E. now destruct (json_bytes_inj _ _ _ _ E) as [-> ->]. Qed.

(* the operator's name as a string, which [discriminate] decides at once *)
Lemma cmp_fields_name op1 op2 :
  json_cmpop_fields op1 = json_cmpop_fields op2 -> fst (doc_cmpop op1) = fst (doc_cmpop op2).
Proof.
  rewrite !json_cmpop_fields_doc. destruct (doc_cmpop op1) as [n1 r1], (doc_cmpop op2) as [n2 r2].
  intros [= H _]. now apply bytes_of_string_inj.
Qed.

Lemma cmp_fields_inj sch t op1 op2 :
  cmp_typed sch t op1 -> cmp_typed sch t op2 ->
  json_cmpop_fields op1 = json_cmpop_fields op2 -> erase_cmpop op1 = erase_cmpop op2.
Proof.
  intros T1 T2 H. pose proof (cmp_fields_name _ _ H) as Hn.
  (* the names differ unless the operators are the same or both are `in {...}`; of two such lists of
     different kinds the type of the left-hand side admits one only *)
  destruct op1 as [|[] r1|z1|p1 f1|pat1 raw1|[] p1 f1|l1|l1|l1|li1 n1],
           op2 as [|[] r2|z2|p2 f2|pat2 raw2|[] p2 f2|l2|l2|l2|li2 n2]; try discriminate Hn.
  all: cbn [json_cmpop_fields erase_cmpop cmp_typed] in *.
  1: reflexivity.
  all: apply op_rhs_inj in H as [_ H].
  1-6: (* orderings *) destruct T1 as [E1 K1], T2 as [E2 K2]; f_equal; apply json_rhs_inj; congruence.
  7-9, 11-13: (* lists of different kinds *) exfalso; intuition congruence.
  - now injection H as ->.
  - now destruct (json_bytes_inj _ _ _ _ H) as [-> ->].
  - now injection H as ->.
  - now destruct (json_bytes_inj _ _ _ _ H) as [-> ->].
  - now destruct (json_bytes_inj _ _ _ _ H) as [-> ->].
  - injection H as H. f_equal. now apply int_ranges_inj.
  - injection H as H. destruct T1 as [_ K1], T2 as [_ K2]. rewrite Forall_forall in K1, K2.
    f_equal. apply (map_injective json_ip_item); [|exact H]. intros; apply json_ip_item_inj; auto.
  - injection H as H. f_equal. now apply bytes_items_inj.
  - injection H as ->. destruct T1 as (t1 & E1 & L1), T2 as (t2 & E2 & L2). f_equal. congruence.
Qed.

Lemma NoDup_app_both {A} (l1 l2 : list A) : NoDup (l1 ++ l2) -> NoDup l1 /\ NoDup l2.
Proof.
  induction l1 as [|x l1 IH]; cbn [app]; intro H; [split; [constructor|exact H]|].
  inversion H as [|y l Hx Hl]; subst. destruct (IH Hl) as [H1 H2]. split; [|exact H2].
  constructor; [|exact H1]. intro Hi. apply Hx. apply in_or_app. now left.
Qed.

Section WithScheme.
Variable sch : scheme.
Hypothesis Hnames : names_distinct sch.

Lemma field_name_inj f1 f2 :
  (f1 < List.length (sc_fields sch))%nat -> (f2 < List.length (sc_fields sch))%nat ->
  field_name sch f1 = field_name sch f2 -> f1 = f2.
Proof.
  rewrite !field_name_spec. intros H1 H2.
  apply (NoDup_nth (map fd_name (sc_fields sch)) []); [exact (proj1 (NoDup_app_both _ _ Hnames))|now rewrite map_length..].
Qed.

Lemma fn_name_inj f1 f2 d1 d2 :
  fn_of sch f1 = Some d1 -> fn_of sch f2 = Some d2 -> fn_name sch f1 = fn_name sch f2 -> f1 = f2.
Proof.
  unfold fn_of, fn_name. destruct (nth_error _ f1) eqn:E1, (nth_error _ f2) eqn:E2; try discriminate.
  intros _ _ H. exact (NoDup_map_nth fst _ _ _ _ _ (proj2 (NoDup_app_both _ _ Hnames)) E1 E2 H).
Qed.

(* the filter on the other side: a parenthesis node has the document, the typing and the structure of
   what it encloses (induction, the case EParen by its hypothesis), and the nodes of another shape
   have another document *)
Ltac other_side e2 T2 H :=
  induction e2 as [op2 items2|lhs2 o2|e2' IH2|e2' _|q2 a2|q2 a2 _]; [ | |exact (IH2 T2 H)| | | ];
  cbn [json_of_lexpr] in H; try discriminate H.

Lemma json_inj_mut :
  (forall e1 e2, lits_typed sch e1 -> lits_typed sch e2 ->
     json_of_lexpr sch e1 = json_of_lexpr sch e2 -> erase e1 = erase e2) /\
  (forall l1 l2, lits_typed_list sch l1 -> lits_typed_list sch l2 ->
     json_of_lexprs sch l1 = json_of_lexprs sch l2 -> erase_list l1 = erase_list l2) /\
  (forall e1 e2, lits_typed_i sch e1 -> lits_typed_i sch e2 ->
     json_of_iexpr sch e1 = json_of_iexpr sch e2 -> erase_i e1 = erase_i e2) /\
  (forall a1 a2 ex i, lits_typed_args sch ex i a1 -> lits_typed_args sch ex i a2 ->
     json_of_args sch a1 = json_of_args sch a2 -> erase_args a1 = erase_args a2) /\
  (forall x1 x2 t, lits_typed_arg sch t x1 -> lits_typed_arg sch t x2 ->
     json_of_arg sch x1 = json_of_arg sch x2 -> erase_arg x1 = erase_arg x2).
Proof.
  apply ast_mutind.
  - (* ECombining *)
    intros op items IH e2 T1 T2 H. other_side e2 T2 H.
    apply struct2_inj in H as [->%jstr_inj%logop_name_inj Hi%JArr_inj]. cbn [erase]. f_equal. now apply IH.
  - (* EComparison *)
    intros lhs IH op e2 T1 T2 H. other_side e2 T2 H.
    apply struct_cons_inj in H as [Hl Hf]. cbn [lits_typed] in T1, T2. destruct T1 as [T1 C1], T2 as [T2 C2].
    pose proof (IH lhs2 T1 T2 Hl) as El. cbn [erase]. rewrite El. f_equal.
    assert (Et : ty_iexpr sch lhs = ty_iexpr sch lhs2) by (rewrite <- (ty_iexpr_erase sch lhs), El; apply ty_iexpr_erase).
    rewrite Et in C1. exact (cmp_fields_inj sch _ _ _ C1 C2 Hf).
  - (* EParen *)
    intros e IH e2 T1 T2 H. cbn [erase]. apply IH; assumption.
  - (* ENot *)
    intros e IH e2 T1 T2 H. other_side e2 T2 H; apply struct2_inj in H as [Hn%jstr_inj H]; [|destruct q2; discriminate Hn..].
    cbn [erase]. f_equal. now apply IH.
  - (* EQuantIndex *)
    intros q a IH e2 T1 T2 H. other_side e2 T2 H; apply struct2_inj in H as [Hq%jstr_inj H]; [destruct q; discriminate Hq|].
    apply quant_name_inj in Hq as ->. apply tagged_value_inj in H as [_ Ha]. cbn [erase]. f_equal. now apply IH.
  - (* EQuantLogical *)
    intros q a IH e2 T1 T2 H. other_side e2 T2 H; apply struct2_inj in H as [Hq%jstr_inj H]; [destruct q; discriminate Hq|].
    apply quant_name_inj in Hq as ->. apply tagged_value_inj in H as [_ Ha]. cbn [erase]. f_equal. now apply IH.
  - (* LNil *)
    intros [|e2 r2] _ _ H; [reflexivity|discriminate H].
  - (* LCons *)
    intros e IHe r IHr [|e2 r2] T1 T2 H; cbn [json_of_lexprs] in H; [discriminate H|].
    injection H as He Hr. cbn [lits_typed_list] in T1, T2. destruct T1, T2.
    cbn [erase_list]. f_equal; [now apply IHe|now apply IHr].
  - (* IField *)
    intros f idx [f2 idx2|fn2 a2 idx2] T1 T2 H; cbn [json_of_iexpr] in H.
    + apply with_indexes_inj in H; try discriminate. destruct H as [Hn ->]. injection Hn as Hn.
      cbn [lits_typed_i] in T1, T2. now rewrite (field_name_inj f f2 T1 T2 Hn).
    + apply with_indexes_inj in H; try discriminate. destruct H as [Hn _]. discriminate Hn.
  - (* ICall *)
    intros fn a IH idx [f2 idx2|fn2 a2 idx2] T1 T2 H; cbn [json_of_iexpr] in H.
    + apply with_indexes_inj in H; try discriminate. destruct H as [Hn _]. discriminate Hn.
    + apply with_indexes_inj in H; try discriminate. destruct H as [[Hn%JStr_inj Ha%JArr_inj]%struct2_inj ->].
      cbn [lits_typed_i] in T1, T2.
      destruct (fn_of sch fn) as [d1|] eqn:E1; [|contradiction]. destruct (fn_of sch fn2) as [d2|] eqn:E2; [|contradiction].
      pose proof (fn_name_inj fn fn2 d1 d2 E1 E2 Hn) as ->. rewrite E1 in E2. injection E2 as <-.
      cbn [erase_i]. f_equal. exact (IH a2 _ _ T1 T2 Ha).
  - (* ANil *)
    intros [|x2 r2] ex i _ _ H; [reflexivity|discriminate H].
  - (* ACons *)
    intros x IHx r IHr [|x2 r2] ex i T1 T2 H; cbn [json_of_args] in H; [discriminate H|].
    injection H as Hx Hr. cbn [lits_typed_args] in T1, T2. destruct T1 as [X1 R1], T2 as [X2 R2].
    cbn [erase_args]. f_equal; [exact (IHx x2 _ X1 X2 Hx)|exact (IHr r2 _ _ R1 R2 Hr)].
  - (* AIndex *)
    intros e IH [e2|r2|e2] t T1 T2 H; cbn [json_of_arg] in H; apply tagged_value_inj in H as [Hk H]; try discriminate Hk.
    cbn [erase_arg]. f_equal. now apply IH.
  - (* ALit *)
    intros r [e2|r2|e2] t T1 T2 H; cbn [json_of_arg] in H; apply tagged_value_inj in H as [Hk H]; try discriminate Hk.
    cbn [lits_typed_arg] in T1, T2. destruct T1 as [E1 K1], T2 as [E2 K2].
    cbn [erase_arg]. f_equal. apply json_rhs_inj; auto. congruence.
  - (* ALogical *)
    intros e IH [e2|r2|e2] t T1 T2 H; cbn [json_of_arg] in H; apply tagged_value_inj in H as [Hk H]; try discriminate Hk.
    cbn [erase_arg]. f_equal. now apply IH.
Qed.

Theorem json_determines_structure e1 e2 :
  lits_typed sch e1 -> lits_typed sch e2 ->
  json_of_lexpr sch e1 = json_of_lexpr sch e2 -> struct_eq e1 e2.
Proof. intros T1 T2 H. exact (proj1 json_inj_mut e1 e2 T1 T2 H). Qed.

End WithScheme.
End WithIpFacts.
