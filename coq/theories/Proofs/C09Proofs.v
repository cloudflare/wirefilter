(* C09: the three `in {...}` comparisons equal their specification. *)
From Coq Require Import List.
From WF Require Import Sem.RangeSet Spec.C09 Proofs.ByteKeys Proofs.RangeSetProofs.
Import ListNotations.
Local Open Scope Z_scope.

Lemma oneof_int_spec items x : oneof_int items x = Some (spec_in_int items x).
Proof. destruct x as [v|]; cbn; [apply rangeset_contains_spec|reflexivity]. Qed.

Lemma split_ip_spec items v :
  Forall ip_item_wf items ->
  existsb (in_range v) (fst (split_ip_items items)) = existsb (ip_item_contains (V4 v)) items /\
  existsb (in_range v) (snd (split_ip_items items)) = existsb (ip_item_contains (V6 v)) items.
Proof.
  induction 1 as [|it items Hwf _ [IH4 IH6]]; [split; reflexivity|].
  cbn [split_ip_items fold_right].
  destruct it as [a b|a b|a n|a n]; cbn [fst snd existsb ip_item_contains orb].
  3, 4: destruct Hwf as [Hn Hm]; rewrite (cidr_range_spec _ a n v Hn Hm).
  all: split; try f_equal; assumption.
Qed.

Lemma oneof_ip_spec items x :
  Forall ip_item_wf items -> oneof_ip items x = Some (spec_in_ip items x).
Proof.
  intros Hwf. destruct x as [[v|v]|]; cbn [oneof_ip spec_in_ip]; [| |reflexivity];
    rewrite rangeset_contains_spec; f_equal; now apply split_ip_spec.
Qed.

Lemma oneof_bytes_spec items x : oneof_bytes items x = Some (spec_in_bytes items x).
Proof.
  destruct x as [v|]; cbn; [|reflexivity]. f_equal.
  induction items as [|i items IH]; cbn; [reflexivity|]. now rewrite IH, bytes_eqb_sym.
Qed.

(* The normal form the binary search relies on, for any input list. *)
Lemma normalize_sorted_disjoint l : sepsorted (rangeset_from l).
Proof. apply merge_sep, sort_sorted. Qed.

Lemma empty_list_false_int x : oneof_int [] x = Some false.
Proof. destruct x; reflexivity. Qed.
Lemma empty_list_false_ip x : oneof_ip [] x = Some false.
Proof. destruct x as [[|]|]; reflexivity. Qed.
Lemma empty_list_false_bytes x : oneof_bytes [] x = Some false.
Proof. destruct x; reflexivity. Qed.

Lemma family_split_v4 items v :
  Forall ip_item_wf items ->
  oneof_ip items (Some (V4 v)) =
  oneof_ip (filter (fun it => match it with IpRange4 _ _ | IpCidr4 _ _ => true | _ => false end) items)
           (Some (V4 v)).
Proof.
  intros Hwf. rewrite !oneof_ip_spec; auto.
  2:{ rewrite Forall_forall in *. intros it Hit. apply filter_In in Hit. now apply Hwf. }
  f_equal. cbn [spec_in_ip]. clear Hwf.
  induction items as [|it items IH]; [reflexivity|]. cbn [filter existsb].
  destruct it; cbn [existsb ip_item_contains]; now rewrite IH.
Qed.
