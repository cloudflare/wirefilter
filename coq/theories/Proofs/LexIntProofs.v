(* C06: integer literals and integer ranges. *)
From Coq Require Import List ZArith Bool Lia.
From WF Require Import Base.Bytes Parse.Lex Spec.C06 Proofs.ListFacts Proofs.LexBase.
Import ListNotations.
Local Open Scope Z_scope.

Lemma int_follow_stops : forall rest, int_follow_ok rest ->
  stops is_hexdigit rest /\ (forall r, rest <> 120%N :: r).
Proof.
  intros [|b r] H; [now split|]. apply orb_false_elim in H as [Hx H120]. split.
  - exact (next_not_stops is_hexdigit (b :: r) Hx).
  - intros r' [= -> _]. discriminate H120.
Qed.

Lemma firstn_span : forall (p rest : bytes), firstn (span_len (p ++ rest) rest) (p ++ rest) = p.
Proof.
  intros p rest. unfold span_len. rewrite app_length, Nat.add_sub. apply firstn_app_exact.
Qed.

Lemma i64_from_nonneg : forall c t radix, c <> 45%N ->
  i64_from_str_radix (c :: t) radix =
  match digits_val radix (c :: t) 0 with
  | Some v => if I64_MAX <? v then None else Some v
  | None => None
  end.
Proof. intros c t radix H. unfold i64_from_str_radix. by_bits_default c. Qed.

Lemma i64_from_neg : forall ds radix, ds <> [] ->
  i64_from_str_radix (45%N :: ds) radix =
  match digits_val radix ds 0 with
  | Some v => if - v <? I64_MIN then None else Some (- v)
  | None => None
  end.
Proof. intros ds radix H. now destruct ds. Qed.

Lemma lex_int_hex : forall s,
  lex_int (48%N :: 120%N :: s) = lbind (lex_digits s) (fun ds rest => parse_number s ds rest 16).
Proof. reflexivity. Qed.

Lemma lex_int_oct : forall s, (forall r, s <> 120%N :: r) ->
  lex_int (48%N :: s) = lbind (lex_digits (48%N :: s)) (fun ds rest => parse_number (48%N :: s) ds rest 8).
Proof.
  intros s H. unfold lex_int. rewrite starts_with_cons, N.eqb_refl. destruct s as [|c s]; [reflexivity|].
  rewrite starts_with_cons. destruct (N.eqb_spec 120 c) as [<-|]; [now elim (H s)|reflexivity].
Qed.

Lemma lex_int_not_zero : forall c s, c <> 48%N ->
  lex_int (c :: s) =
  (let without_neg := match starts_with [45%N] (c :: s) with Some r => r | None => c :: s end in
   lbind (lex_digits without_neg)
     (fun _ rest => parse_number (c :: s) (firstn (span_len (c :: s) rest) (c :: s)) rest 10)).
Proof.
  intros c s H. unfold lex_int. rewrite !starts_with_cons. replace (48 =? c)%N with false by lia.
  by_bits_default c.
Qed.

Definition numeral (radix : Z) (u : bool) (v : Z) (ds : bytes) : Prop :=
  ds <> [] /\ Forall (is_digit_of radix u) ds /\ digits_val radix ds 0 = Some v.

Lemma digits_value : forall radix u v, 2 <= radix <= 16 -> 0 <= v ->
  digits_val radix (print_radix radix v u) 0 = Some v.
Proof.
  intros radix u v Hr Hv. destruct (print_radix_spec radix u v Hr Hv) as (_ & _ & Hval & _).
  specialize (Hval [] 0). rewrite app_nil_r in Hval. now rewrite Hval.
Qed.

Lemma numeral_print : forall radix u pad v, 2 <= radix <= 16 -> 0 <= v ->
  numeral radix u v (repeat 48%N pad ++ print_radix radix v u).
Proof.
  intros radix u pad v Hr Hv. destruct (print_radix_spec radix u v Hr Hv) as (Hne & Hall & _). split; [|split].
  - intros E. now apply app_eq_nil in E.
  - apply Forall_app. split; [|assumption]. apply Forall_forall. intros c Hc. apply repeat_spec in Hc as ->.
    exists 0. split; [lia|now destruct u].
  - now rewrite <- (app_nil_r (_ ++ _)), <- app_assoc, digits_val_zeros, app_nil_r, digits_value by lia.
Qed.

Lemma numeral_lex : forall radix u v ds rest, radix <= 16 -> numeral radix u v ds -> stops is_hexdigit rest ->
  lex_digits (ds ++ rest) = LOk ds rest.
Proof.
  intros radix u v ds rest Hr (Hne & Hall & _) Hs. apply take_while_app; [assumption| |assumption].
  eapply Forall_impl; [|exact Hall]. intros c. now apply is_digit_of_hex.
Qed.

Lemma numeral_parse : forall radix u v ds at_ rest, radix <= 16 -> numeral radix u v ds ->
  parse_number at_ ds rest radix = if I64_MAX <? v then LErr EParseInt at_ (length ds) else LOk v rest.
Proof.
  intros radix u v ds at_ rest Hr (Hne & Hall & Hv). unfold parse_number. destruct ds as [|c t]; [contradiction|].
  rewrite i64_from_nonneg, Hv; [now destruct (I64_MAX <? v)|].
  inversion Hall as [|? ? (d & Hd & ->) _]. apply digit_char_neq; [lia|reflexivity].
Qed.

Lemma lex_int_oct_numeral : forall v t rest, numeral 8 false v (48%N :: t) -> int_follow_ok rest ->
  lex_int ((48%N :: t) ++ rest) =
  if I64_MAX <? v then LErr EParseInt ((48%N :: t) ++ rest) (length (48%N :: t)) else LOk v rest.
Proof.
  intros v t rest N Hf. destruct (int_follow_stops rest Hf) as [Hs Hx].
  cbn [app]. rewrite lex_int_oct.
  - change (48%N :: t ++ rest) with ((48%N :: t) ++ rest).
    rewrite (numeral_lex 8 false v) by (assumption || lia). apply (numeral_parse 8 false); [lia|assumption].
  - destruct t as [|c t]; [exact Hx|]. destruct N as (_ & Hall & _).
    inversion Hall as [|? ? _ Ht]. inversion Ht as [|? ? (d & Hd & ->) _]. intros r [= E _]. revert E.
    apply digit_char_neq; [lia|reflexivity].
Qed.

Theorem lex_int_print : forall f v rest, int_form_ok f v -> int_follow_ok rest ->
  exists at_ len, lex_int (print_int f v ++ rest) =
    if (I64_MIN <=? v) && (v <=? I64_MAX) then LOk v rest else LErr EParseInt at_ len.
Proof.
  intros f v rest Hok Hf. destruct (int_follow_stops rest Hf) as [Hs Hx].
  assert (Hmax : 0 <= v -> (I64_MIN <=? v) && (v <=? I64_MAX) = negb (I64_MAX <? v))
    by (unfold I64_MIN, I64_MAX; lia).
  destruct f as [|u pad|pad]; cbn [print_int int_form_ok] in *.
  - unfold print_dec. destruct (Z.ltb_spec v 0) as [Hneg|Hpos].
    + pose proof (numeral_print 10 false 0 (- v) ltac:(lia) ltac:(lia)) as N. cbn [repeat app] in N.
      set (ds := print_radix 10 (- v) false) in *. eexists _, _.
      cbn [app]. rewrite lex_int_not_zero by discriminate. cbn [starts_with N.eqb Pos.eqb].
      rewrite (numeral_lex 10 false (- v)) by (assumption || lia). cbn [lbind].
      change (45%N :: ds ++ rest) with ((45%N :: ds) ++ rest). rewrite firstn_span.
      unfold parse_number. destruct N as (Hne & _ & Hv). rewrite i64_from_neg, Hv, Z.opp_involutive by assumption.
      replace (v <=? I64_MAX) with true by (unfold I64_MAX; lia).
      rewrite andb_true_r, Z.leb_antisym. now destruct (v <? I64_MIN).
    + rewrite Hmax by assumption.
      pose proof (numeral_print 10 false 0 v ltac:(lia) Hpos) as N. cbn [repeat app] in N.
      destruct (print_radix_spec 10 false v ltac:(lia) Hpos) as (_ & _ & _ & Hhd & H0).
      destruct (Z.eq_dec v 0) as [->|Hnz].
      * rewrite (H0 eq_refl). exists [], O.
        now rewrite (lex_int_oct_numeral 0 [] rest (numeral_print 8 false 0 0 ltac:(lia) ltac:(lia)) Hf).
      * destruct (Hhd ltac:(lia)) as (d & t & E & Hd). rewrite E in *. eexists _, _.
        cbn [app]. rewrite lex_int_not_zero by (rewrite digit_char_zero; lia).
        rewrite starts_with_cons. replace (45 =? digit_char false d)%N with false
          by (symmetry; apply N.eqb_neq, not_eq_sym, digit_char_neq; [lia|reflexivity]).
        cbn zeta iota.
        change (digit_char false d :: t ++ rest) with ((digit_char false d :: t) ++ rest).
        rewrite (numeral_lex 10 false v) by (assumption || lia). cbn [lbind].
        rewrite firstn_span, (numeral_parse 10 false v) by (assumption || lia). now destruct (I64_MAX <? v).
  - rewrite Hmax by assumption. pose proof (numeral_print 16 u pad v ltac:(lia) Hok) as N. eexists _, _.
    cbn [app]. rewrite lex_int_hex, (numeral_lex 16 u v) by (assumption || lia). cbn [lbind].
    rewrite (numeral_parse 16 u v) by (assumption || lia). now destruct (I64_MAX <? v).
  - rewrite Hmax by assumption. pose proof (numeral_print 8 false (S pad) v ltac:(lia) Hok) as N. eexists _, _.
    rewrite (lex_int_oct_numeral v (repeat 48%N pad ++ print_radix 8 v false)) by assumption.
    now destruct (I64_MAX <? v).
Qed.

Theorem int_roundtrip : forall f v rest,
  in_i64 v -> int_form_ok f v -> int_follow_ok rest ->
  lex_int (print_int f v ++ rest) = LOk v rest.
Proof.
  intros f v rest Hv Hok Hf. destruct (lex_int_print f v rest Hok Hf) as (a & n & ->).
  now replace ((I64_MIN <=? v) && (v <=? I64_MAX)) with true by (unfold in_i64, i64_min, i64_max, I64_MIN, I64_MAX in *; lia).
Qed.

Theorem int_range_lex : forall f1 f2 a b rest,
  in_i64 a -> in_i64 b -> int_form_ok f1 a -> int_form_ok f2 b -> int_follow_ok rest ->
  lex_int_range (print_int_range f1 f2 a b ++ rest) =
  if b <? a then LErr EIncompatibleRangeBounds (print_int_range f1 f2 a b ++ rest) (length (print_int_range f1 f2 a b))
  else LOk (a, b) rest.
Proof.
  intros f1 f2 a b rest Ha Hb Hoa Hob Hf. unfold lex_int_range, print_int_range.
  rewrite <- !app_assoc, int_roundtrip by (assumption || reflexivity).
  cbn [lbind app starts_with N.eqb Pos.eqb]. rewrite int_roundtrip by assumption. cbn [lbind].
  destruct (b <? a); [|reflexivity]. f_equal.
  unfold span_len. repeat (rewrite ?app_length; cbn [length]). lia.
Qed.

Theorem int_single_as_range : forall f v rest,
  in_i64 v -> int_form_ok f v -> int_follow_ok rest -> no_dotdot_next rest ->
  lex_int_range (print_int f v ++ rest) = LOk (v, v) rest.
Proof.
  intros f v rest Hv Hok Hf Hd. unfold lex_int_range. rewrite int_roundtrip by assumption. cbn [lbind].
  replace (starts_with [46%N; 46%N] rest) with (@None bytes); [reflexivity|].
  destruct rest as [|x [|y r]]; cbn [starts_with]; [reflexivity|now destruct (46 =? x)%N|].
  destruct (N.eqb_spec 46 x) as [<-|]; [|reflexivity]. destruct (N.eqb_spec 46 y) as [<-|]; [|reflexivity].
  destruct Hd.
Qed.
