(* Sem/RegistryFast.v computes what Sem/Registry.v and Spec/C16.v define. *)
From Coq Require Import List Bool.
From WF Require Import Base.Bytes Lang.Types Sem.Registry Spec.C16 Sem.RegistryFast Proofs.RegistryProofs.
Import ListNotations.

Definition fb_ok (f : fbuilder) : Prop :=
  f_nfields f = length (f_fields f) /\ f_nfunctions f = length (f_functions f) /\
  f_nlists f = length (f_lists f).

(* every operation: the same lookup in the same map; on success the new slot is
   consed where the plain builder appends it, under the counter that stands
   for the length *)
Lemma fapply_ok f o :
  fb_ok f ->
  fb_ok (snd (fapply_op f o)) /\
  apply_op (to_builder f) o = (fst (fapply_op f o), to_builder (snd (fapply_op f o))).
Proof.
  intros (Hf & Hn & Hl).
  destruct o as [n t|n t|n|t k]; cbn [apply_op fapply_op];
    unfold add_field, add_optional_field, add_field_full, fadd_field_full, add_function, fadd_function,
      add_list, fadd_list; cbn [to_builder b_items b_list_types];
    [destruct (map_get bytes_eqb n (f_items f)) as [[i|i]|]..|destruct (map_get ty_eqb t (f_list_types f))];
    cbn [fst snd]; try (split; [repeat split; assumption|reflexivity]).
  all: split; [repeat split; cbn; auto|]; unfold to_builder;
    cbn [b_fields b_functions b_items b_list_types b_lists f_fields f_functions f_items f_list_types f_lists];
    unfold rev'; rewrite <- !rev_alt; cbn [rev]; now rewrite rev_length, <- ?Hf, <- ?Hn, <- ?Hl.
Qed.

Lemma fold_fstep ops : forall rs f,
  fb_ok f ->
  fold_left step ops (rev rs, to_builder f) =
  (rev (fst (fold_left fstep ops (rs, f))), to_builder (snd (fold_left fstep ops (rs, f)))).
Proof.
  induction ops as [|o ops IH]; intros rs f Hok; [reflexivity|].
  cbn [fold_left]. destruct (fapply_ok f o Hok) as [Hok' Ha].
  unfold step at 2, fstep at 2 4. cbn [fst snd]. rewrite Ha. exact (IH (_ :: rs) _ Hok').
Qed.

Theorem run_ops_fast_eq ops : run_ops_fast ops = run_ops ops.
Proof.
  unfold run_ops_fast, run_ops, rev'. rewrite <- rev_alt. symmetry. now apply (fold_fstep ops [] empty_fbuilder).
Qed.

(* walking from the newest registration and letting later finds override is
   walking from the oldest and stopping at the first: [fold_left_rev_right] *)
Lemma oldest_kind_spec lr n :
  spec_kind (rev lr) (KName n) =
  match oldest_kind lr n with Some true => Some RedefField | Some false => Some RedefFunction | None => None end.
Proof.
  unfold oldest_kind.
  rewrite <- (fold_left_rev_right (fun r acc => match kind_of_reg n r with Some k => Some k | None => acc end)).
  cbn [spec_kind]. unfold holder. generalize 0%nat at 2. generalize 0%nat. induction (rev lr) as [|r l IH]; intros nf nfn; [reflexivity|].
  destruct r as [m t o|m|t k]; cbn [lookup_from fold_right kind_of_reg]; try destruct (bytes_eqb n m);
    try reflexivity; apply IH.
Qed.

Lemma has_list_rev_spec lr t : has_list_rev lr t = has_list (rev lr) t.
Proof.
  unfold has_list, has_list_rev. induction lr as [|r lr IH]; [reflexivity|].
  cbn [existsb rev]. rewrite reg_lists_app, existsb_app, <- IH.
  destruct r as [m t' o|m|t' k]; cbn [reg_lists existsb fst]; rewrite ?orb_false_r; [reflexivity..|].
  apply orb_comm.
Qed.

Lemma fspec_apply_ok lr o :
  spec_apply (rev lr) o = (fst (fspec_apply lr o), rev (snd (fspec_apply lr o))).
Proof.
  rewrite spec_apply_by_kind.
  destruct o as [n t|n t|n|t k]; cbn [op_key fspec_apply reg_of_op]; unfold fspec_add_named.
  1-3: rewrite oldest_kind_spec; now destruct (oldest_kind lr n) as [[|]|].
  cbn [spec_kind]. rewrite has_list_rev_spec. now destruct (has_list (rev lr) t).
Qed.

Lemma fold_fspec_step ops : forall rs lr,
  fold_left spec_step ops (rev rs, rev lr) =
  (rev (fst (fold_left fspec_step ops (rs, lr))), rev (snd (fold_left fspec_step ops (rs, lr)))).
Proof.
  induction ops as [|o ops IH]; intros rs lr; [reflexivity|].
  cbn [fold_left]. unfold spec_step at 2, fspec_step at 2 4. cbn [fst snd]. rewrite (fspec_apply_ok lr o).
  exact (IH (_ :: rs) _).
Qed.

Theorem spec_run_ops_fast_eq ops : spec_run_ops_fast ops = spec_run_ops ops.
Proof.
  unfold spec_run_ops_fast, spec_run_ops, rev'. rewrite <- !rev_alt. symmetry. apply (fold_fspec_step ops [] []).
Qed.
