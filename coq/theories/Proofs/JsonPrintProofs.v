(* C07, part 3: the compact JSON printer is injective.  Two JSON values with
   the same text are the same value; more precisely the printer is a prefix
   code: whatever follows (not starting with a digit, which could extend a
   number), the value and the rest can be read back. *)
From Coq Require Import List ZArith Bool Lia ZifyBool DecimalN.
From WF Require Import Base.Bytes Base.Sexp Sem.TypeCodec Sem.JsonText Sem.AstJson Proofs.AstJsonProofs.
Import ListNotations.
Local Open Scope N_scope.

Definition dig (c : N) : bool := (48 <=? c) && (c <=? 57).
Definition nd (r : bytes) : Prop := match r with [] => True | c :: _ => dig c = false end.

Fixpoint read_uint (x : bytes) : Decimal.uint :=
  match x with
  | c :: r =>
      if dig c
      then nth (N.to_nat (c - 48)) 
             [Decimal.D0; Decimal.D1; Decimal.D2; Decimal.D3; Decimal.D4;
              Decimal.D5; Decimal.D6; Decimal.D7; Decimal.D8; Decimal.D9] Decimal.D9 (read_uint r)
      else Decimal.Nil
  | [] => Decimal.Nil
  end.

Lemma read_uint_print u r : nd r -> read_uint (uint_to_bytes u ++ r) = u.
Proof.
  intros Hr. induction u; cbn [uint_to_bytes app]; [|cbn; now rewrite IHu..].
  destruct r as [|c r]; [reflexivity|]. cbn [read_uint]. cbn [nd] in Hr. now rewrite Hr.
Qed.

Lemma uint_inj_rest u1 u2 r1 r2 : nd r1 -> nd r2 ->
  uint_to_bytes u1 ++ r1 = uint_to_bytes u2 ++ r2 -> u1 = u2 /\ r1 = r2.
Proof.
  intros H1 H2 H. assert (E : u1 = u2) by (rewrite <- (read_uint_print u1 r1 H1), H; now apply read_uint_print).
  subst u2. now apply app_inv_head in H.
Qed.

Lemma uint_digits u : Forall (fun c => dig c = true) (uint_to_bytes u).
Proof. induction u; cbn [uint_to_bytes]; constructor; auto. Qed.

Lemma print_N_uint n : print_N n = uint_to_bytes (N.to_uint n).
Proof. destruct n; reflexivity. Qed.

Lemma print_N_inj_rest n1 n2 r1 r2 : nd r1 -> nd r2 ->
  print_N n1 ++ r1 = print_N n2 ++ r2 -> n1 = n2 /\ r1 = r2.
Proof.
  intros H1 H2 H. rewrite !print_N_uint in H.
  destruct (uint_inj_rest _ _ _ _ H1 H2 H) as [Hu ->]. split; [|reflexivity].
  now apply DecimalN.Unsigned.to_uint_inj.
Qed.

Lemma print_N_digits n : Forall (fun c => dig c = true) (print_N n).
Proof. rewrite print_N_uint. apply uint_digits. Qed.

Lemma to_uint_nonnil n : N.to_uint n <> Decimal.Nil.
Proof. destruct n as [|p]; [discriminate|]. apply DecimalPos.Unsigned.to_uint_nonnil. Qed.

Lemma print_N_head n : exists c t, print_N n = c :: t /\ dig c = true.
Proof.
  rewrite print_N_uint. pose proof (to_uint_nonnil n). destruct (N.to_uint n); [contradiction|..]; repeat eexists.
Qed.

Lemma print_Z_head z : exists c t, print_Z z = c :: t /\ (c = 45 \/ dig c = true).
Proof.
  destruct z as [|p|p]; cbn [print_Z].
  - destruct (print_N_head (Z.to_N 0)) as (c & t & E & Hc). eauto.
  - destruct (print_N_head (Z.to_N (Z.pos p))) as (c & t & E & Hc). eauto.
  - eauto.
Qed.

Lemma print_Z_cases z :
  (exists n, print_Z z = print_N n /\ z = Z.of_N n) \/
  (exists p, print_Z z = 45 :: print_N (N.pos p) /\ z = Z.neg p).
Proof.
  destruct z as [|p|p].
  - left. exists 0. split; reflexivity.
  - left. exists (N.pos p). split; reflexivity.
  - right. exists p. split; reflexivity.
Qed.

Lemma print_Z_inj_rest z1 z2 r1 r2 : nd r1 -> nd r2 ->
  print_Z z1 ++ r1 = print_Z z2 ++ r2 -> z1 = z2 /\ r1 = r2.
Proof.
  intros H1 H2 H.
  assert (Hneg : forall p n t, 45 :: t = print_N n ++ p -> False).
  { intros p n t E. destruct (print_N_head n) as (c & t' & E' & Hc). rewrite E' in E.
    injection E as <- _. discriminate Hc. }
  destruct (print_Z_cases z1) as [(n1 & E1 & ->)|(p1 & E1 & ->)],
           (print_Z_cases z2) as [(n2 & E2 & ->)|(p2 & E2 & ->)]; rewrite E1, E2 in H.
  - destruct (print_N_inj_rest _ _ _ _ H1 H2 H) as [-> ->]. auto.
  - exfalso. cbn [app] in H. symmetry in H. now apply Hneg in H.
  - exfalso. cbn [app] in H. now apply Hneg in H.
  - cbn [app] in H. assert (H' : print_N (N.pos p1) ++ r1 = print_N (N.pos p2) ++ r2) by congruence.
    destruct (print_N_inj_rest _ _ _ _ H1 H2 H') as [E ->].
    injection E as ->. auto.
Qed.

(* reads one (possibly escaped) character of a JSON string back; None at the closing quote *)
Definition unesc (x : bytes) : option (N * bytes) :=
  match x with
  | [] => None
  | c :: r =>
      if c =? 34 then None
      else if c =? 92 then
        match r with
        | e :: r1 =>
            if e =? 34 then Some (34, r1) else if e =? 92 then Some (92, r1)
            else if e =? 98 then Some (8, r1) else if e =? 102 then Some (12, r1)
            else if e =? 110 then Some (10, r1) else if e =? 114 then Some (13, r1)
            else if e =? 116 then Some (9, r1)
            else if e =? 117 then
              match r1 with
              | _ :: _ :: a :: d :: r2 =>
                  match hex_val a, hex_val d with
                  | Some u, Some v => Some (u * 16 + v, r2)
                  | _, _ => None
                  end
              | _ => None
              end
            else None
        | [] => None
        end
      else Some (c, r)
  end.

Lemma hex_val_digit n : n < 16 -> hex_val (hex_digit n) = Some n.
Proof.
  intro H. unfold hex_digit, hex_val. destruct (N.ltb_spec n 10).
  - replace ((48 <=? 48 + n) && (48 + n <=? 57)) with true by lia. f_equal. lia.
  - replace ((48 <=? 87 + n) && (87 + n <=? 57)) with false by lia.
    replace ((97 <=? 87 + n) && (87 + n <=? 102)) with true by lia. f_equal. lia.
Qed.

Lemma unesc_esc c r : unesc (esc_byte c ++ r) = Some (c, r).
Proof.
  unfold esc_byte.
  destruct (N.eqb_spec c 34) as [->|N1]; [reflexivity|]. destruct (N.eqb_spec c 92) as [->|N2]; [reflexivity|].
  destruct (N.eqb_spec c 8) as [->|N3]; [reflexivity|]. destruct (N.eqb_spec c 12) as [->|N4]; [reflexivity|].
  destruct (N.eqb_spec c 10) as [->|N5]; [reflexivity|]. destruct (N.eqb_spec c 13) as [->|N6]; [reflexivity|].
  destruct (N.eqb_spec c 9) as [->|N7]; [reflexivity|].
  destruct (N.ltb_spec c 32) as [L|L].
  - (* \u00XY *)
    change (unesc ([92; 117; 48; 48; hex_digit (c / 16); hex_digit (c mod 16)] ++ r))
      with (match hex_val (hex_digit (c / 16)), hex_val (hex_digit (c mod 16)) with
            | Some u, Some v => Some (u * 16 + v, r) | _, _ => None end).
    rewrite !hex_val_digit by (try apply N.div_lt_upper_bound; try apply N.mod_lt; lia).
    do 2 f_equal. rewrite N.mul_comm. symmetry. now apply N.div_mod.
  - cbn [app unesc]. now rewrite (proj2 (N.eqb_neq c 34) N1), (proj2 (N.eqb_neq c 92) N2).
Qed.

Lemma jstr_body_inj : forall x1 x2 r1 r2,
  flat_map esc_byte x1 ++ 34 :: r1 = flat_map esc_byte x2 ++ 34 :: r2 -> x1 = x2 /\ r1 = r2.
Proof.
  induction x1 as [|c1 x1 IH]; intros [|c2 x2] r1 r2 H; cbn [flat_map app] in H.
  - injection H as ->. auto.
  - apply (f_equal unesc) in H. rewrite <- app_assoc, unesc_esc in H. discriminate H.
  - apply (f_equal unesc) in H. rewrite <- app_assoc, unesc_esc in H. discriminate H.
  - apply (f_equal unesc) in H. rewrite <- !app_assoc, !unesc_esc in H. injection H as -> H.
    destruct (IH _ _ _ H) as [-> ->]. auto.
Qed.

Lemma print_jstr_inj_rest x1 x2 r1 r2 :
  print_jstr x1 ++ r1 = print_jstr x2 ++ r2 -> x1 = x2 /\ r1 = r2.
Proof.
  unfold print_jstr. cbn [app]. rewrite <- !app_assoc. cbn [app]. intro H. injection H as H.
  now apply jstr_body_inj.
Qed.

(* the first character tells the kind of value *)
Definition jhead (j : json) (c : N) : Prop :=
  match j with
  | JNull => c = 110
  | JBool true => c = 116
  | JBool false => c = 102
  | JNum _ => c = 45 \/ dig c = true
  | JStr _ => c = 34
  | JArr _ => c = 91
  | JObj _ => c = 123
  end.

Lemma jprint_head j : exists c t, jprint j = c :: t /\ jhead j c.
Proof.
  destruct j as [|[|]|z|x|l|l]; cbn [jprint jhead]; try (eexists; eexists; split; reflexivity).
  destruct (print_Z_head z) as (c & t & E & H). eauto.
Qed.

Definition same_ctor (j1 j2 : json) : Prop :=
  match j1, j2 with
  | JNull, JNull => True
  | JBool a, JBool c => a = c
  | JNum _, JNum _ | JStr _, JStr _ | JArr _, JArr _ | JObj _, JObj _ => True
  | _, _ => False
  end.

Lemma jhead_same j1 j2 c : jhead j1 c -> jhead j2 c -> same_ctor j1 j2.
Proof.
  destruct j1 as [|[|]|z1|x1|l1|l1], j2 as [|[|]|z2|x2|l2|l2]; cbn [jhead same_ctor]; intros H1 H2; auto;
    try (subst c; discriminate H2); try (subst c; destruct H2 as [H2|H2]; discriminate H2);
    try (subst c; destruct H1 as [H1|H1]; discriminate H1).
Qed.

(* a value never starts with a separator or a closing bracket *)
Lemma jhead_not_sep j c : jhead j c -> c <> 44 /\ c <> 93 /\ c <> 125.
Proof.
  destruct j as [|[|]|z|x|l|l]; cbn [jhead]; intro H; try (subst c; repeat split; discriminate).
  destruct H as [->|H]; repeat split; try discriminate; intros ->; discriminate H.
Qed.

(* a comma separated sequence closed by [close] *)
Lemma join_inj_gen {A} (pr : A -> bytes) (close : N) :
  close <> 44 -> dig close = false ->
  (forall x, exists c t, pr x = c :: t /\ c <> close) ->
  forall l1,
    Forall (fun x => forall y s1 s2, nd s1 -> nd s2 -> pr x ++ s1 = pr y ++ s2 -> x = y /\ s1 = s2) l1 ->
    forall l2 r1 r2,
      join_sep 44 (map pr l1) ++ close :: r1 = join_sep 44 (map pr l2) ++ close :: r2 -> l1 = l2 /\ r1 = r2.
Proof.
  intros Hc Hd Hhead l1 HF. induction HF as [|x l1 Hx HF IH]; intros l2 r1 r2 H.
  - destruct l2 as [|y l2]; cbn [map] in H.
    + cbn [join_sep app] in H. injection H as ->. auto.
    + exfalso. rewrite join_sep_cons, <- app_assoc in H. destruct (Hhead y) as (c & t & E & Hne).
      rewrite E in H. cbn [join_sep app] in H. injection H as H _. now apply Hne.
  - destruct l2 as [|y l2].
    + exfalso. cbn [map] in H. rewrite join_sep_cons, <- app_assoc in H. destruct (Hhead x) as (c & t & E & Hne).
      rewrite E in H. cbn [map join_sep app] in H. injection H as H _. now apply Hne.
    + cbn [map] in H. rewrite !join_sep_cons, <- !app_assoc in H.
      apply Hx in H.
      * destruct H as [-> H]. destruct l1 as [|x1 l1], l2 as [|y1 l2]; cbn [map app] in H.
        -- injection H as ->. auto.
        -- exfalso. injection H as H _. now apply Hc.
        -- exfalso. injection H as H _. now apply Hc.
        -- apply (f_equal (@tl N)) in H. cbn [tl] in H.
           destruct (IH (y1 :: l2) _ _ H) as [-> ->]. auto.
      * destruct l1; cbn [map app nd]; [exact Hd|reflexivity].
      * destruct l2; cbn [map app nd]; [exact Hd|reflexivity].
Qed.

Lemma same_ctor_of_eq j1 j2 r1 r2 : jprint j1 ++ r1 = jprint j2 ++ r2 -> same_ctor j1 j2.
Proof.
  intro H. destruct (jprint_head j1) as (c1 & t1 & E1 & Hh1), (jprint_head j2) as (c2 & t2 & E2 & Hh2).
  rewrite E1, E2 in H. cbn [app] in H. injection H as Hc _. subst c2. exact (jhead_same _ _ _ Hh1 Hh2).
Qed.

Lemma jprint_inj_rest : forall j1 j2 r1 r2, nd r1 -> nd r2 -> jprint j1 ++ r1 = jprint j2 ++ r2 -> j1 = j2 /\ r1 = r2.
Proof.
  induction j1 as [| v | z | x | l IH | l IH] using json_ind2; intros j2 r1 r2 H1 H2 H.
  all: pose proof (same_ctor_of_eq _ _ _ _ H) as Hs.
  - destruct j2; try contradiction. cbn [jprint] in H. apply app_inv_head in H. auto.
  - destruct j2 as [|v2| | | |]; try contradiction. cbn [same_ctor] in Hs. subst v2.
    apply app_inv_head in H. auto.
  - destruct j2 as [| |z2| | |]; try contradiction. cbn [jprint] in H.
    destruct (print_Z_inj_rest _ _ _ _ H1 H2 H) as [-> ->]. auto.
  - destruct j2 as [| | |x2| |]; try contradiction. cbn [jprint] in H.
    destruct (print_jstr_inj_rest _ _ _ _ H) as [-> ->]. auto.
  - destruct j2 as [| | | |l2|]; try contradiction. cbn [jprint app] in H. injection H as H.
    rewrite <- !app_assoc in H. cbn [app] in H.
    assert (Hhead : forall x, exists c t, jprint x = c :: t /\ c <> 93).
    { intro x. destruct (jprint_head x) as (c & t & E & Hh). exists c, t. split; [exact E|apply (jhead_not_sep _ _ Hh)]. }
    destruct (join_inj_gen jprint 93 ltac:(discriminate) eq_refl Hhead l IH l2 r1 r2 H) as [-> ->]. auto.
  - destruct j2 as [| | | | |l2]; try contradiction. cbn [jprint app] in H. injection H as H.
    rewrite <- !app_assoc in H. cbn [app] in H.
    set (pr := fun kv : bytes * json => match kv with (k, v) => jprint_member k (jprint v) end) in H.
    assert (Hhead : forall kv, exists c t, pr kv = c :: t /\ c <> 125).
    { intros [k v]. unfold pr, jprint_member, print_jstr. cbn [app]. eexists; eexists; split; [reflexivity|discriminate]. }
    assert (HF : Forall (fun x => forall y s1 s2, nd s1 -> nd s2 -> pr x ++ s1 = pr y ++ s2 -> x = y /\ s1 = s2) l).
    { eapply Forall_impl; [|exact IH]. intros [k v] Hv [k' v'] s1 s2 Hn1 Hn2 E. cbn [snd] in Hv.
      unfold pr, jprint_member in E. rewrite <- !app_assoc in E.
      destruct (print_jstr_inj_rest _ _ _ _ E) as [-> E']. cbn [app] in E'. injection E' as E'.
      destruct (Hv _ _ _ Hn1 Hn2 E') as [-> ->]. auto. }
    destruct (join_inj_gen pr 125 ltac:(discriminate) eq_refl Hhead l HF l2 r1 r2 H) as [-> ->]. auto.
Qed.

Theorem jprint_injective j1 j2 : jprint j1 = jprint j2 -> j1 = j2.
Proof.
  intro H. apply (f_equal (fun x => x ++ [])) in H.
  now destruct (jprint_inj_rest j1 j2 [] [] I I H).
Qed.

Corollary json_print_injective j1 j2 : json_print j1 = json_print j2 -> j1 = j2.
Proof. rewrite <- !jprint_is_json_print. apply jprint_injective. Qed.
