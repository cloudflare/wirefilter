(* C11 -- Regex and wildcard operators match with the documented semantics.
   This file contains only the property theorems, each a lemma of
   Proofs/MatchersProofs.v or a few steps from some.

   Model: Sem/Matchers.v -- regex_scan_go / regex_scan_literal (a mirror of the
   loop of lex_regex_from_literal in engine/src/rhs_types/regex/mod.rs),
   regex_lex_pattern (impl LexWith for Regex; raw strings through
   Parse/Lex.v's lex_raw_string_as_str), wparse / star_count /
   has_double_star / wildcard_new / wildcard_compile / wildcard_lex
   (Wildcard::new, validate_wildcard, impl LexWith for Wildcard), wmatch and
   sym_eq (crate wildcard 0.3 with `?` disabled and
   case_insensitive(!STRICT): u8::eq_ignore_ascii_case), and, for `matches`,
   regex_parse (regex-syntax 0.8 restricted to a subset), regex_run (a
   derivative-based reference matcher, structurally recursive, no fuel).
   Specification: Spec/C11.v.

   What is proved: the scanner, the wildcard validation and the wildcard
   matcher equal their specifications for ALL inputs; the reference regex
   matcher decides the inductive matching relation for EVERY syntax tree and
   EVERY haystack.
   What is NOT proved (C11 is partial there): that regex-automata and the
   wildcard crate -- third-party code -- compute the same function as the
   reference matchers, and that regex_parse reads pattern text like
   regex-syntax.  Those two links are carried only by the correspondence runs
   (tools/props/c11.py), as for every third-party crate in this framework. *)
From Coq Require Import List NArith Arith Bool.
From WF Require Import Base.Bytes Parse.Lex Sem.Matchers Spec.C11 Proofs.MatchersProofs.
Import ListNotations.
Open Scope N_scope.

(* the scanner computes exactly the relation of the specification *)
Theorem C11_scanner_spec : forall (ic : bool) (s p rest : bytes),
  regex_scan_go s ic = Some (p, rest) <-> scan_spec ic s p rest.
Proof. intros ic s p rest. split; [now apply (scan_go_sound (length s))|apply scan_go_complete]. Qed.

(* a literal without \<quote> outside a class, without a lone trailing
   backslash and ending outside a class reaches the engine unchanged *)
Theorem C11_scanner_identity_without_quotes : forall body rest : bytes,
  scan_clean false body -> regex_scan_literal (body ++ 34 :: rest) = LOk body rest.
Proof.
  intros body rest H. unfold regex_scan_literal.
  now rewrite (scan_go_complete _ _ _ _ (scan_clean_spec _ _ H rest)).
Qed.

Theorem C11_scanner_unescapes_quote_outside_class : forall s : bytes,
  regex_scan_go (92 :: 34 :: s) false = map_pat (cons 34) (regex_scan_go s false).
Proof. exact scanner_unescapes_quote_outside_class. Qed.

(* inside a class the pair \<quote> is kept, and a bare quote is a member, not the end *)
Theorem C11_scanner_keeps_escape_inside_class : forall (c : N) (s : bytes),
  regex_scan_go (92 :: c :: s) true = map_pat (fun p => 92 :: c :: p) (regex_scan_go s true) /\
  regex_scan_go (34 :: s) true = map_pat (cons 34) (regex_scan_go s true).
Proof. exact scanner_keeps_escape_inside_class. Qed.

Theorem C11_scanner_keeps_other_escapes : forall (c : N) (s : bytes),
  c <> 34 -> regex_scan_go (92 :: c :: s) false = map_pat (fun p => 92 :: c :: p) (regex_scan_go s false).
Proof. intros c s Hc%N.eqb_neq. rewrite scan_go_escape, Hc. reflexivity. Qed.

(* r#..#<quote>body<quote>#..#: the body is delivered verbatim (ASCII bodies in
   which no quote is followed by n hashes; n <= 255) *)
Theorem C11_raw_verbatim : forall (n : nat) (body rest : bytes),
  (n <= 255)%nat ->
  Forall (fun b => b < 128) body ->
  raw_body_ok n body ->
  lex_raw_string_as_str (repeat 35 n ++ 34 :: body ++ 34 :: repeat 35 n ++ rest) = LOk (body, N.of_nat n) rest.
Proof. exact raw_string_verbatim. Qed.

Theorem C11_raw_regex_untouched : forall (input body rest : bytes) (n : N),
  lex_raw_string_as_str input = LOk (body, n) rest ->
  regex_lex_pattern (114 :: input) = LOk (body, Some n) rest.
Proof. intros input body rest n H. cbn. now rewrite H. Qed.

(* executable matcher <-> inductive specification, all token lists and values *)
Theorem C11_wildcard_match_spec : forall (strict : bool) (t : list wtok) (v : bytes),
  wmatch strict t v = true <-> wmatch_spec strict t v.
Proof. exact wmatch_is_spec. Qed.

(* the same at the level of pattern text *)
Theorem C11_wildcard_text_match_spec : forall (strict : bool) (p v : bytes),
  wildcard_match strict p v = Some true <-> exists t, wtokens p t /\ wmatch_spec strict t v.
Proof. exact wildcard_match_spec. Qed.

(* the whole value is matched: the literals consume one byte each; without a
   star the lengths are equal and the comparison is byte for byte *)
Theorem C11_wildcard_whole_value : forall (strict : bool) (t : list wtok) (v : bytes),
  wmatch strict t v = true ->
  (lits t <= length v)%nat /\ (stars t = 0%nat -> length v = lits t).
Proof. exact wildcard_whole_value. Qed.

Theorem C11_wildcard_literal_pattern : forall (strict : bool) (l v : bytes),
  wmatch strict (map WLit l) v = true <-> Forall2 (sym_spec strict) l v.
Proof.
  intros strict l. induction l as [|c l IH]; intros [|y v]; cbn [map wmatch];
    try (split; [discriminate|now inversion 1]); [now split|].
  rewrite andb_true_iff, sym_eq_spec, IH. split; [now intros []; constructor|now inversion 1].
Qed.

(* strict = exact bytes; non-strict = ASCII case-insensitive, i.e. the strict
   matcher on the ASCII-lowercased pattern and value *)
Theorem C11_wildcard_case_rule :
  (forall a b, sym_eq true a b = true <-> a = b) /\
  (forall a b, sym_eq false a b = true <-> ascii_case_eq a b) /\
  (forall t v, wmatch true t v = true -> wmatch false t v = true) /\
  (forall t v, wmatch false t v = wmatch true (map fold_tok t) (map ascii_lower v)).
Proof. exact wildcard_case_rule. Qed.

(* acceptance at parse time = the specification *)
Theorem C11_wildcard_accept_spec : forall (limit : option N) (p : bytes) (t : list wtok),
  wildcard_compile limit p = Some t <-> wildcard_accept_spec limit p t.
Proof. exact wildcard_compile_spec. Qed.

Theorem C11_wildcard_reject_rules :
  (forall limit p t, wtokens p t -> double_star t -> wildcard_compile limit p = None) /\
  (forall limit p t c q, wtokens p t -> c <> 42 -> c <> 92 ->
     wildcard_compile limit (p ++ 92 :: c :: q) = None /\ wildcard_compile limit (p ++ [92]) = None) /\
  (forall l p t, wtokens p t -> l < N.of_nat (stars t) -> wildcard_compile (Some l) p = None) /\
  (forall limit p, wildcard_compile limit p = None <->
     ~ (exists t, wtokens p t /\ ~ double_star t /\ (forall l, limit = Some l -> N.of_nat (stars t) <= l))) /\
  (forall r, wparse (63 :: r) = option_map (cons (WLit 63)) (wparse r)) /\
  (forall strict x, sym_eq strict 63 x = true <-> x = 63).
Proof. exact wildcard_reject_rules. Qed.

(* the two operators agree: a wildcard is the anchored regex ^...$ with
   (any byte)* for a star *)
Theorem C11_wildcard_is_anchored_regex : forall (strict : bool) (t : list wtok) (v : bytes),
  wmatch strict t v = regex_run (wild_regex strict t) v.
Proof.
  intros strict t v. apply eq_true_iff_eq. now rewrite wmatch_is_spec, regex_run_spec, wild_regex_spec.
Qed.

(* the reference matcher decides "some substring of the haystack matches", for
   every syntax tree of the subset and every haystack; no fuel, no bound *)
Theorem C11_regex_ref_matcher_sound_complete : forall (r : regex_ast) (h : bytes),
  regex_run r h = true <-> regex_search_spec r h.
Proof. exact regex_run_spec. Qed.

(* Partiality, stated formally: "every pattern text is modelled" is false.
   The model covers a subset of regex-syntax (see regex_parse); for the rest
   (counted repetition, flags, Unicode classes, word boundaries, nested
   classes, non-ASCII text, ...) it answers RxOutside and nothing is claimed. *)
Definition C11_regex_full : Prop := forall pat : bytes, regex_parse pat <> RxOutside.

Theorem C11_regex_full_refuted : exists pat : bytes, regex_parse pat = RxOutside.
Proof. exists [97; 123; 50; 125]. vm_compute. reflexivity. Qed.

(* "[a-z<quote>\]]+\d\<quote>" : a quote and an escaped bracket inside a class, \<quote> outside *)
Example C11_scanner_nontrivial :
  regex_scan_literal [91; 97; 45; 122; 34; 92; 93; 93; 43; 92; 100; 92; 34; 34; 59]
  = LOk [91; 97; 45; 122; 34; 92; 93; 93; 43; 92; 100; 34] [59].
Proof. vm_compute. reflexivity. Qed.

Example C11_scan_clean_satisfiable : scan_clean false [91; 34; 92; 34; 93; 92; 92; 97].
Proof.
  apply CleanOpen. apply CleanQuoteInside. apply CleanEscape; [left; reflexivity|].
  apply CleanClose. apply CleanEscape; [right; discriminate|].
  apply CleanPlain; try discriminate. constructor.
Qed.

(* the raw string r# <q>a<q>b<q> # with one hash on each side *)
Example C11_raw_premise_satisfiable :
  raw_body_ok 1 [97; 34; 98] /\
  lex_raw_string_as_str [35; 34; 97; 34; 98; 34; 35; 59] = LOk ([97; 34; 98], 1) [59].
Proof.
  split; [|vm_compute; reflexivity].
  intros a b H. destruct a as [|x [|y [|z a]]]; cbn in H; try discriminate H.
  - injection H as _ Hb. subst b. cbn. apply Nat.lt_0_1.
  - destruct a; discriminate H.
Qed.

Example C11_wildcard_nontrivial :
  wildcard_compile (Some 2) [42; 97; 92; 42; 63; 42] = Some [WStar; WLit 97; WLit 42; WLit 63; WStar] /\
  wmatch false [WStar; WLit 97; WLit 42; WLit 63; WStar] [255; 65; 42; 63] = true /\
  wmatch true [WStar; WLit 97; WLit 42; WLit 63; WStar] [255; 65; 42; 63] = false /\
  wildcard_compile (Some 1) [42; 97; 92; 42; 63; 42] = None /\
  wildcard_compile None [97; 42; 42] = None /\
  wildcard_compile None [97; 92; 63] = None.
Proof. repeat split; vm_compute; reflexivity. Qed.

(* ^(a|[^b-c])+\x41$ on "axA" and on "abA" *)
Example C11_regex_nontrivial :
  exists r, regex_compile [94; 40; 97; 124; 91; 94; 98; 45; 99; 93; 41; 43; 92; 120; 52; 49; 36] = Some r /\
            regex_run r [97; 120; 65] = true /\ regex_run r [97; 98; 65] = false /\
            regex_search_spec r [97; 120; 65].
Proof.
  eexists. split; [vm_compute; reflexivity|]. split; [vm_compute; reflexivity|].
  split; [vm_compute; reflexivity|]. apply regex_run_spec. vm_compute. reflexivity.
Qed.

Check C11_scanner_identity_without_quotes : forall body rest : bytes,
  scan_clean false body -> regex_scan_literal (body ++ 34 :: rest) = LOk body rest.
Check C11_wildcard_match_spec : forall (strict : bool) (t : list wtok) (v : bytes),
  wmatch strict t v = true <-> wmatch_spec strict t v.
Check C11_wildcard_accept_spec : forall (limit : option N) (p : bytes) (t : list wtok),
  wildcard_compile limit p = Some t <-> wildcard_accept_spec limit p t.
Check C11_regex_ref_matcher_sound_complete : forall (r : regex_ast) (h : bytes),
  regex_run r h = true <-> regex_search_spec r h.

Print Assumptions C11_scanner_spec.
Print Assumptions C11_scanner_identity_without_quotes.
Print Assumptions C11_scanner_unescapes_quote_outside_class.
Print Assumptions C11_scanner_keeps_escape_inside_class.
Print Assumptions C11_raw_verbatim.
Print Assumptions C11_wildcard_match_spec.
Print Assumptions C11_wildcard_whole_value.
Print Assumptions C11_wildcard_case_rule.
Print Assumptions C11_wildcard_accept_spec.
Print Assumptions C11_wildcard_reject_rules.
Print Assumptions C11_wildcard_is_anchored_regex.
Print Assumptions C11_regex_ref_matcher_sound_complete.
