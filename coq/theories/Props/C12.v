(* C12 — uses() and uses_list() report field usage exactly.

   AST level (every theorem below is for all ASTs, by mutual induction, no size
   bound): the visitor model of FilterAst::uses / uses_list and
   FilterValueAst::uses / uses_list (Sem/Visitor.v: the early-exit flag, the
   walk of every node kind, UsesListVisitor::visit_comparison_expr, name
   resolution first) answers `true` exactly when the field occurs as an
   identifier constituent (resp. inside the left-hand side of an `in $list`
   comparison), and errs exactly on the names that are not fields of the
   scheme (function names included).

   Source level: the parser model builds an identifier node only from an
   identifier it lexed from the text and looked up in the scheme
   ([C12_parser_ident]).  The full source-level statement is [C12_full]; it is
   not proved (see the comment there), so the theorems about the text are
   named [_partial]. *)
From Coq Require Import List NArith.
From WF Require Import Base.Bytes Lang.Types Lang.Ast Parse.Lex Parse.Parser Sem.Visitor Spec.C12
     Proofs.VisitorProofs Proofs.VisitorSource.
Import ListNotations.

Theorem C12_uses_filter : forall (f : nat) (e : lexpr),
  uv_lexpr f false e = true <-> occurs f (NL e).
Proof. exact uses_filter_spec. Qed.

Theorem C12_uses_value : forall (f : nat) (e : iexpr),
  uv_iexpr f false e = true <-> occurs f (NI e).
Proof. intros f e. rewrite uv_iexpr_occursb. apply occursb_iff. Qed.

Theorem C12_uses_list_filter : forall (f : nat) (e : lexpr),
  ulv_lexpr f false e = true <-> occurs_in_list_lhs f (NL e).
Proof. intros f e. rewrite ulv_lexpr_spec. apply occurs_in_list_lhsb_iff. Qed.

Theorem C12_uses_list_value : forall (f : nat) (e : iexpr),
  ulv_iexpr f false e = true <-> occurs_in_list_lhs f (NI e).
Proof. intros f e. rewrite ulv_iexpr_spec. apply occurs_in_list_lhsb_iff. Qed.

(* ---- by name: Some b = Ok(b) for THE field of that name, None = Err(UnknownFieldError) ---- *)
Theorem C12_api_filter : forall (sch : scheme) (e : lexpr) (name : bytes),
  answers sch name (fun i => occurs i (NL e)) (filter_uses sch e name) /\
  answers sch name (fun i => occurs_in_list_lhs i (NL e)) (filter_uses_list sch e name).
Proof. intros sch e name. split; apply answers_of; intros i; [apply C12_uses_filter|apply C12_uses_list_filter]. Qed.

Theorem C12_api_value : forall (sch : scheme) (e : iexpr) (name : bytes),
  answers sch name (fun i => occurs i (NI e)) (value_uses sch e name) /\
  answers sch name (fun i => occurs_in_list_lhs i (NI e)) (value_uses_list sch e name).
Proof. intros sch e name. split; apply answers_of; intros i; [apply C12_uses_value|apply C12_uses_list_value]. Qed.

Theorem C12_unknown_name_error : forall (sch : scheme) (name : bytes),
  ~ is_field_name sch name ->
  (forall e, filter_uses sch e name = None /\ filter_uses_list sch e name = None) /\
  (forall e, value_uses sch e name = None /\ value_uses_list sch e name = None).
Proof.
  intros sch name H. apply get_field_none in H.
  unfold filter_uses, filter_uses_list, value_uses, value_uses_list. rewrite H. cbn. auto.
Qed.

Theorem C12_function_name_error : forall (sch : scheme) (name : bytes) (i : nat),
  scheme_get sch name = Some (IdFn i) -> ~ is_field_name sch name.
Proof. intros sch name i H. apply get_field_none. unfold get_field. now rewrite H. Qed.

(* name resolution: the field found has that name; with unique names every field is found by its name *)
Theorem C12_lookup : forall (sch : scheme) (name : bytes),
  (forall i, get_field sch name = Some i -> names_field sch name i) /\
  (get_field sch name = None <-> ~ is_field_name sch name) /\
  (names_unique sch -> forall i, names_field sch name i -> get_field sch name = Some i).
Proof.
  intros sch name. split; [intros i; apply get_field_some|].
  split; [apply get_field_none|]. intros Hu i. now apply get_field_complete.
Qed.

(* what the specification run of the correspondence check evaluates is the relational specification,
   and it is what the model run evaluates *)
Theorem C12_exec_spec : forall (f : nat) (n : node),
  (occursb f n = true <-> occurs f n) /\ (occurs_in_list_lhsb f n = true <-> occurs_in_list_lhs f n).
Proof. intros f n. split; [apply occursb_iff|apply occurs_in_list_lhsb_iff]. Qed.

Theorem C12_model_is_exec_spec : forall (sch : scheme) (name : bytes),
  (forall e, filter_uses sch e name = spec_uses sch (NL e) name /\
             filter_uses_list sch e name = spec_uses_list sch (NL e) name) /\
  (forall e, value_uses sch e name = spec_uses sch (NI e) name /\
             value_uses_list sch e name = spec_uses_list sch (NI e) name).
Proof.
  intros sch name. split; intros e; split; apply by_name_ext; intros i.
  - apply uv_lexpr_occursb.
  - apply ulv_lexpr_spec.
  - apply uv_iexpr_occursb.
  - apply ulv_iexpr_spec.
Qed.

Theorem C12_uses_list_implies_uses : forall (f : nat) (n : node), occurs_in_list_lhs f n -> occurs f n.
Proof.
  intros f n (lhs & li & name & Hs & idx & Ho). exists idx.
  eapply sub_trans; [|exact Hs]. eapply sub_step; [exact Ho|constructor].
Qed.

(* every identifier node comes from an identifier lexed at that point of the text *)
Theorem C12_parser_ident : forall sch st fuel d input e rest,
  lex_index_expr sch st fuel d input = LOk e rest ->
  exists name after,
    lex_ident_name input = LOk name after /\
    match e with
    | IField i _ => scheme_get sch name = Some (IdField i)
    | ICall i _ _ => scheme_get sch name = Some (IdFn i)
    end.
Proof. exact lex_index_expr_ident. Qed.

(* uses(name) = true for a parsed filter => the name is written in the text, at a place where the
   identifier lexer reads exactly it *)
Theorem C12_source_sound_partial : forall sch st text e rest i,
  parse_filter sch st text = LOk e rest -> occurs i (NL e) ->
  exists before name after,
    names_field sch name i /\ lex_ident_name (name ++ after) = LOk name after /\
    trim text = before ++ name ++ after.
Proof. exact filter_idents_in_source. Qed.

Theorem C12_source_sound_value_partial : forall sch st text e rest i,
  parse_value sch st text = LOk e rest -> occurs i (NI e) ->
  exists before name after,
    names_field sch name i /\ lex_ident_name (name ++ after) = LOk name after /\
    trim text = before ++ name ++ after.
Proof. exact value_idents_in_source. Qed.

(* The full statement about the source: "the name occurs as an identifier in the source" is made
   precise without a second grammar as "the parse depends on the field being called that": renaming
   the field (to any name that is not written anywhere in the text) changes the result of parsing
   ([source_mentions], Spec/C12.v).  The direction uses = true -> mentioned is proved
   ([C12_source_forward_partial]: a renamed scheme cannot produce the node); the converse needs a
   simulation between the two parser runs and is not proved.  The correspondence check covers it
   with an oracle that knows the generator's tree. *)
Theorem C12_source_forward_partial : forall sch st text e i fd,
  names_unique sch -> parse_filter sch st text = LOk e [] -> nth_error (sc_fields sch) i = Some fd ->
  filter_uses sch e (fd_name fd) = Some true -> source_mentions sch st text i.
Proof. exact uses_true_source_mentions. Qed.

Definition C12_full : Prop :=
  forall sch st text e, names_unique sch -> parse_filter sch st text = LOk e [] ->
  forall i fd, nth_error (sc_fields sch) i = Some fd ->
    (filter_uses sch e (fd_name fd) = Some true <-> source_mentions sch st text i).

(* ---- non-vacuity ---- *)
Definition ex_scheme : scheme :=
  {| sc_fields := [ {| fd_name := [97]; fd_ty := TInt; fd_optional := false |};
                    {| fd_name := [98]; fd_ty := TBytes; fd_optional := false |};
                    {| fd_name := [99]; fd_ty := TInt; fd_optional := true |} ];
     sc_functions := []; sc_lists := [(TInt, LkAlways)]; sc_nil_ne := true |}.

(* `a in $l and b == "x"`:  a is used and used in a list, b is used only outside, c never, "d" unknown *)
Example C12_example_text :
  let text := [97;32;105;110;32;36;108;32;97;110;100;32;98;32;61;61;32;34;120;34]%N in
  match parse_filter ex_scheme default_settings text with
  | LOk e _ =>
      map (fun n => (filter_uses ex_scheme e n, filter_uses_list ex_scheme e n)) [[97]; [98]; [99]; [100]]%N
      = [(Some true, Some true); (Some true, Some false); (Some false, Some false); (None, None)]
  | _ => False
  end.
Proof. vm_compute. reflexivity. Qed.

Example C12_unknown_premise_satisfiable : ~ is_field_name ex_scheme [100]%N.
Proof.
  intros (i & fd & Hn & Hname). destruct i as [|[|[|i]]]; cbn in Hn; try (injection Hn as <-; discriminate).
  destruct i; discriminate.
Qed.

Example C12_unique_premise_satisfiable : names_unique ex_scheme.
Proof. unfold names_unique. cbn. repeat constructor; cbn; intuition discriminate. Qed.

Check C12_uses_filter : forall (f : nat) (e : lexpr), uv_lexpr f false e = true <-> occurs f (NL e).
Check C12_uses_value : forall (f : nat) (e : iexpr), uv_iexpr f false e = true <-> occurs f (NI e).
Check C12_uses_list_filter : forall (f : nat) (e : lexpr),
  ulv_lexpr f false e = true <-> occurs_in_list_lhs f (NL e).
Check C12_uses_list_value : forall (f : nat) (e : iexpr),
  ulv_iexpr f false e = true <-> occurs_in_list_lhs f (NI e).
Check C12_unknown_name_error : forall (sch : scheme) (name : bytes),
  ~ is_field_name sch name ->
  (forall e, filter_uses sch e name = None /\ filter_uses_list sch e name = None) /\
  (forall e, value_uses sch e name = None /\ value_uses_list sch e name = None).
Check C12_api_filter : forall (sch : scheme) (e : lexpr) (name : bytes),
  answers sch name (fun i => occurs i (NL e)) (filter_uses sch e name) /\
  answers sch name (fun i => occurs_in_list_lhs i (NL e)) (filter_uses_list sch e name).

Print Assumptions C12_uses_filter.
Print Assumptions C12_uses_value.
Print Assumptions C12_uses_list_filter.
Print Assumptions C12_uses_list_value.
Print Assumptions C12_api_filter.
Print Assumptions C12_api_value.
Print Assumptions C12_unknown_name_error.
Print Assumptions C12_function_name_error.
Print Assumptions C12_lookup.
Print Assumptions C12_exec_spec.
Print Assumptions C12_model_is_exec_spec.
Print Assumptions C12_uses_list_implies_uses.
Print Assumptions C12_parser_ident.
Print Assumptions C12_source_sound_partial.
Print Assumptions C12_source_sound_value_partial.
Print Assumptions C12_source_forward_partial.
