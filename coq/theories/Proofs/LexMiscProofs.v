(* C06: array indexes, map keys, list names; UTF-8 acceptance. *)
From Coq Require Import List ZArith Bool Lia.
From WF Require Import Base.Bytes Parse.Lex Spec.C06 Proofs.LexBase Proofs.LexIntProofs.
Import ListNotations.
Local Open Scope Z_scope.

Lemma lfi_each : forall s, lex_field_index (42%N :: s) = LOk RIEach s.
Proof. reflexivity. Qed.
Lemma lfi_key : forall s,
  lex_field_index (34%N :: s) =
  lbind (lex_bytes (34%N :: s)) (fun p rest => let '(b, _) := p in
    if utf8_valid b then LOk (RIKey b) rest else LErr EExpectedLiteral (34%N :: s) (length (34%N :: s))).
Proof. intros s. unfold lex_field_index, lbind. cbn [starts_with N.eqb Pos.eqb]. reflexivity. Qed.
Lemma lfi_int : forall c s, c <> 42%N -> c <> 34%N ->
  lex_field_index (c :: s) =
  match lex_int (c :: s) with
  | LOk i rest =>
      if (0 <=? i) && (i <? 4294967296) then LOk (RIArr (Z.to_N i)) rest
      else LErr EExpectedLiteral (c :: s) (length (c :: s))
  | LErr _ _ _ => LErr EExpectedLiteral (c :: s) (length (c :: s))
  | LPanic => LPanic
  | LFuel => LFuel
  end.
Proof.
  intros c s H1 H2. unfold lex_field_index. rewrite starts_with_cons. replace (42 =? c)%N with false by lia.
  by_bits_default c.
Qed.

Lemma print_int_head : forall f v, int_form_ok f v ->
  exists c t, print_int f v = c :: t /\ c <> 42%N /\ c <> 34%N.
Proof.
  intros f v Hok. destruct f as [|u pad|pad]; cbn [print_int app]; [|now eexists _, _..].
  unfold print_dec. destruct (Z.ltb_spec v 0); [now eexists _, _|].
  destruct (print_radix_spec 10 false v) as (Hne & Hall & _); [lia..|].
  destruct (print_radix 10 v false) as [|c t]; [contradiction|]. inversion Hall as [|? ? (d & Hd & ->) _].
  exists (digit_char false d), t. split; [reflexivity|]. split; apply digit_char_neq; (lia || reflexivity).
Qed.

Theorem index_lex : forall f n rest, int_form_ok f n -> int_follow_ok rest ->
  lex_field_index (print_int f n ++ rest) =
  if (0 <=? n) && (n <? 4294967296) then LOk (RIArr (Z.to_N n)) rest
  else LErr EExpectedLiteral (print_int f n ++ rest) (length (print_int f n ++ rest)).
Proof.
  intros f n rest Hok Hf. destruct (print_int_head f n Hok) as (c & t & E & H42 & H34).
  assert (E2 : print_int f n ++ rest = c :: t ++ rest) by now rewrite E.
  rewrite E2 at 1. rewrite lfi_int, <- E2 by assumption.
  destruct (lex_int_print f n rest Hok Hf) as (a & l & ->).
  destruct ((I64_MIN <=? n) && (n <=? I64_MAX)) eqn:Ei; [reflexivity|].
  now replace ((0 <=? n) && (n <? 4294967296)) with false by (unfold I64_MIN, I64_MAX in Ei; lia).
Qed.

Lemma cont_byte_spec : forall x, ((128 <=? x) && (x <=? 191))%N = true -> cont_byte x.
Proof. intros x H. unfold cont_byte. lia. Qed.

Lemma if_true_inv : forall c x y : bool, (if c then x else y) = true -> c = true /\ x = true \/ c = false /\ y = true.
Proof. intros [] x y H; [left|right]; now split. Qed.

(* the cascade of tests on the lead byte is peeled test by test; [E] is the test that held *)
Lemma utf8_valid_go_chars : forall fuel s, utf8_valid_go fuel s = true -> utf8_chars s.
Proof.
  induction fuel as [|f IH]; intros s H; [discriminate|].
  destruct s as [|b r]; [constructor|]. cbn [utf8_valid_go] in H. cbv zeta beta in H.
  apply if_true_inv in H as [[E H]|[_ H]]; [apply U8one; [lia|now apply IH]|].
  apply if_true_inv in H as [[E H]|[_ H]].
  { destruct r as [|c1 r]; [discriminate|]. apply andb_prop in H as [H1 H]. apply U8two; [lia|now apply cont_byte_spec|now apply IH]. }
  apply if_true_inv in H as [[E H]|[_ H]];
    [|apply if_true_inv in H as [[E H]|[_ H]]; [|apply if_true_inv in H as [[E H]|[_ H]]]].
  1-3: destruct r as [|c1 [|c2 r]]; try discriminate H; apply andb_prop in H as [H H3]; apply andb_prop in H as [H1 H2];
       apply U8three; [lia|unfold cont_byte; lia|now apply cont_byte_spec|now apply IH].
  apply if_true_inv in H as [[E H]|[_ H]];
    [|apply if_true_inv in H as [[E H]|[_ H]]; [|apply if_true_inv in H as [[E H]|[_ H]]; [|discriminate H]]].
  all: destruct r as [|c1 [|c2 [|c3 r]]]; try discriminate H; apply andb_prop in H as [H H4]; apply andb_prop in H as [H H3];
       apply andb_prop in H as [H1 H2];
       apply U8four; [lia|unfold cont_byte; lia|now apply cont_byte_spec..|now apply IH].
Qed.

Theorem utf8_valid_chars : forall s, utf8_valid s = true -> utf8_chars s.
Proof. intros s. apply utf8_valid_go_chars. Qed.

Lemma listname_ascii : forall b, listname_byte b = true -> is_ascii b && is_listname_char b = true.
Proof. intros b H. unfold listname_byte, is_listname_char, Lex.is_digit, is_ascii in *. lia. Qed.
Lemma listname_follow_stops : forall rest, listname_follow_ok rest -> stops is_listname_char rest.
Proof. exact (next_not_stops is_listname_char). Qed.

Lemma starts_with_single : forall x input after, starts_with [x] input = Some after <-> input = x :: after.
Proof.
  intros x [|y s] after; cbn [starts_with]; [easy|].
  destruct (N.eqb_spec x y) as [->|]; rewrite ?starts_with_nil; split; congruence.
Qed.

Definition list_name_verdict (name rest : bytes) : lres bytes :=
  match name with
  | [] => LErr EInvalidListName (name ++ rest) (length (name ++ rest))
  | _ => if (hd 0%N name =? 46)%N || (last name 0%N =? 46)%N
         then LErr EInvalidListName (name ++ rest) (length (name ++ rest))
         else LOk name rest
  end.

Lemma lex_list_name_run : forall name rest,
  Forall (fun b => listname_byte b = true) name -> listname_follow_ok rest ->
  lex_list_name (36%N :: name ++ rest) = list_name_verdict name rest.
Proof.
  intros name rest Hn Hr. unfold lex_list_name. cbn [starts_with N.eqb Pos.eqb]. rewrite take_while_go_app.
  - reflexivity.
  - eapply Forall_impl; [|exact Hn]. exact listname_ascii.
  - now apply listname_follow_stops.
Qed.

Theorem list_name_accept : forall name rest, good_list_name name -> listname_follow_ok rest ->
  lex_list_name (36%N :: name ++ rest) = LOk name rest.
Proof.
  intros name rest (Hne & Hc & Hh & Hl) Hr. rewrite lex_list_name_run by assumption.
  unfold list_name_verdict. destruct name as [|b t]; [contradiction|].
  now replace ((hd 0%N (b :: t) =? 46)%N || (last (b :: t) 0%N =? 46)%N) with false by lia.
Qed.

Theorem list_name_reject : forall name rest,
  Forall (fun b => listname_byte b = true) name -> listname_follow_ok rest -> ~ good_list_name name ->
  lex_list_name (36%N :: name ++ rest) = LErr EInvalidListName (name ++ rest) (length (name ++ rest)).
Proof.
  intros name rest Hc Hr Hbad. rewrite lex_list_name_run by assumption.
  unfold list_name_verdict. destruct name as [|b t]; [reflexivity|].
  destruct (_ || _) eqn:E; [reflexivity|]. elim Hbad. repeat split; [discriminate|assumption|lia..].
Qed.

Theorem list_name_no_dollar : forall input, (forall r, input <> 36%N :: r) ->
  lex_list_name input = LErr EExpectedLiteral input (length input).
Proof.
  intros input H. unfold lex_list_name. destruct (starts_with [36%N] input) as [after|] eqn:E; [|reflexivity].
  apply starts_with_single in E. now elim (H after).
Qed.

Theorem list_name_inv : forall input v rest, lex_list_name input = LOk v rest ->
  input = 36%N :: v ++ rest /\ good_list_name v /\ listname_follow_ok rest.
Proof.
  intros input v rest H. unfold lex_list_name in H.
  destruct (starts_with [36%N] input) as [after|] eqn:E; [|discriminate].
  apply starts_with_single in E as ->.
  destruct (take_while_go is_listname_char after) as [name r] eqn:Et.
  destruct (take_while_go_inv _ _ _ _ Et) as (-> & Ha & Hs).
  destruct name as [|b t]; [discriminate|]. destruct (_ || _) eqn:Eh; [discriminate|].
  injection H as <- <-. repeat split; [discriminate| |lia..|].
  - eapply Forall_impl; [|exact Ha]. intros x Hx. cbn beta in Hx. change (listname_byte x) with (is_listname_char x). lia.
  - destruct r as [|x r']; [exact I|]. cbn in *. change (listname_byte x) with (is_listname_char x).
    unfold is_listname_char, Lex.is_digit, is_ascii in *. lia.
Qed.

Theorem list_name_iff : forall input,
  (exists v rest, lex_list_name input = LOk v rest) <->
  (exists name rest, input = 36%N :: name ++ rest /\ good_list_name name /\ listname_follow_ok rest).
Proof.
  intros input. split.
  - intros (v & rest & H). exists v, rest. now apply list_name_inv.
  - intros (name & rest & -> & Hg & Hr). exists name, rest. now apply list_name_accept.
Qed.
