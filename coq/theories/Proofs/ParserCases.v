(* The bodies of lex_with_lhs, lex_arg, lex_call_args and lex_simple
   (Parse/Parser.v) cut into named parts - the comparison after a left-hand
   side, the local closures, the quantifier branch - with the equations that
   say which of them a call with fuel [S f] runs, and what an accepted result
   of a part went through.  Which part runs depends on the first bytes of the
   input only, so the choice is made here once and the proofs about the
   parser reason about the named parts. *)
From Coq Require Import List NArith Bool.
From WF Require Import Base.Bytes Lang.Types Lang.Ast Parse.Lex Sem.Compile Parse.Parser Proofs.LexBase.
Import ListNotations.
Local Open Scope N_scope.
Local Notation length := List.length (only parsing).

Lemma lbind_ok {A B} (r : lres A) (k : A -> bytes -> lres B) b rest :
  lbind r k = LOk b rest -> exists a rest0, r = LOk a rest0 /\ k a rest0 = LOk b rest.
Proof. destruct r as [a rest0|kk s n| |]; cbn; intros H; try discriminate. eauto. Qed.

Lemma increase_cases st d at_ :
  st_max_depth st <= d /\ increase st d at_ = LErr ENestingLimitExceeded at_ (length at_)
  \/ d < st_max_depth st /\ increase st d at_ = LOk (d + 1) [].
Proof. unfold increase. destruct (N.leb_spec (st_max_depth st) d); auto. Qed.

Lemma increase_intro st d at_ : d < st_max_depth st -> increase st d at_ = LOk (d + 1) [].
Proof. intros H. destruct (increase_cases st d at_) as [[Hle _]|[_ E]]; [now apply N.le_ngt in Hle|exact E]. Qed.

Lemma increase_bind_ok {B} st d at_ (k : N -> bytes -> lres B) b r :
  lbind (increase st d at_) k = LOk b r -> k (d + 1) [] = LOk b r.
Proof. destruct (increase_cases st d at_) as [[_ ->]|[_ ->]]; [discriminate|exact id]. Qed.

Lemma lmap_ok {A B} (f : A -> B) (r : lres A) b rest :
  lmap f r = LOk b rest -> exists a, r = LOk a rest /\ b = f a.
Proof. unfold lmap. intros H. apply lbind_ok in H. destruct H as (a & rest0 & -> & H). injection H as <- <-. eauto. Qed.

Lemma combine_cases lhs op rhs :
  combine lhs op rhs = ECombining op (LCons lhs (LCons rhs LNil))
  \/ exists o items, lhs = ECombining o items /\
       combine lhs op rhs = ECombining op (lexprs_of_list (lexprs_to_list items ++ [rhs])).
Proof. unfold combine. destruct lhs as [o items| | | | |]; auto. destruct (same_logop o op); eauto. Qed.

Lemma lex_regex_other b r : b <> 34 -> b <> 114 -> lex_regex (b :: r) = LErr EExpectedName (b :: r) (length (b :: r)).
Proof.
  intros H34 H114. unfold lex_regex. by_bits_default b.
Qed.

(* The comparison that follows a left-hand side of type [lt], for [lt] neither Bool nor a container of
   Bool: an operator, then the literal(s) the operator asks for.  The match of lex_with_lhs on the type
   of the left-hand side repeats this branch for every such type; here it stands once. *)
Definition cmp_rhs (sch : scheme) (st : settings) (lhs : iexpr) (lt : ty) (input : bytes) : lres lexpr :=
  let initial := skip_space input in
  match lex_alts comparison_ops initial with
  | None => LErr EExpectedName initial (length initial)
  | Some (op, after_op) =>
      let input1 := skip_space after_op in
      let unsupported := LErr EUnsupportedOp initial (span_len initial after_op) in
      let prim3 := match lt with TInt | TBytes | TIp => true | _ => false end in
      match op with
      | OpIn =>
          if negb prim3 then unsupported
          else
            match starts_with [36] input1 with
            | Some _ =>
                lbind (lex_list_name input1) (fun name rest =>
                  match list_index sch lt with
                  | Some li => LOk (EComparison lhs (CInList li name)) rest
                  | None => LErr EUnsupportedOp initial (span_len initial rest)
                  end)
            | None =>
                match lt with
                | TInt => lbind (lex_brace_list lex_int_range input1)
                                (fun l rest => LOk (EComparison lhs (COneOfInt l)) rest)
                | TIp => lbind (lex_brace_list lex_ip_range input1)
                               (fun l rest => LOk (EComparison lhs (COneOfIp l)) rest)
                | _ => lbind (lex_brace_list lex_bytes input1)
                             (fun l rest => LOk (EComparison lhs (COneOfBytes l)) rest)
                end
            end
      | OpOrd o =>
          if negb prim3 then unsupported
          else lbind (lex_rhs lt input1) (fun r rest => LOk (EComparison lhs (COrd o r)) rest)
      | OpBand =>
          match lt with
          | TInt => lbind (lex_int input1) (fun z rest => LOk (EComparison lhs (CBitAnd z)) rest)
          | _ => unsupported
          end
      | OpContains =>
          match lt with
          | TBytes => lbind (lex_bytes input1) (fun p rest => LOk (EComparison lhs (CContains (fst p) (snd p))) rest)
          | _ => unsupported
          end
      | OpMatches =>
          match lt with
          | TBytes => lbind (lex_regex input1) (fun p rest => LOk (EComparison lhs (CMatches (fst p) (snd p))) rest)
          | _ => unsupported
          end
      | OpWildcard =>
          match lt with
          | TBytes => lbind (lex_wildcard st input1)
                            (fun p rest => LOk (EComparison lhs (CWildcard false (fst p) (snd p))) rest)
          | _ => unsupported
          end
      | OpStrictWildcard =>
          match lt with
          | TBytes => lbind (lex_wildcard st input1)
                            (fun p rest => LOk (EComparison lhs (CWildcard true (fst p) (snd p))) rest)
          | _ => unsupported
          end
      end
  end.

Lemma lex_with_lhs_S sch st f d input lhs :
  lex_with_lhs sch st (S f) d input lhs =
  match ty_iexpr sch lhs with
  | None => LPanic
  | Some TBool => LOk (EComparison lhs CIsTrue) input
  | Some (TArray TBool) | Some (TMap TBool) =>
      if Nat.ltb 0 (map_each_count (iexpr_idx lhs)) then LErr EUnsupportedOp input 0%nat
      else LOk (EComparison lhs CIsTrue) input
  | Some lt => cmp_rhs sch st lhs lt input
  end.
Proof. reflexivity. Qed.

Lemma lex_with_lhs_cases sch st f d input lhs (r := lex_with_lhs sch st (S f) d input lhs) :
  r = LPanic \/ r = LOk (EComparison lhs CIsTrue) input \/ r = LErr EUnsupportedOp input 0%nat \/
  exists lt, ty_iexpr sch lhs = Some lt /\ r = cmp_rhs sch st lhs lt input.
Proof.
  subst r. rewrite lex_with_lhs_S. destruct (ty_iexpr sch lhs) as [[| | | |[]|[]]|]; try destruct (Nat.ltb _ _); eauto 7.
Qed.

Definition rhs_src (r : rhs) : Prop := exists t i rest, lex_rhs t i = LOk r rest.

Lemma int_src i z rest : lex_int i = LOk z rest -> rhs_src (RInt z).
Proof. intros E. exists TInt, i, rest. unfold lex_rhs. now rewrite E. Qed.
Lemma ip_src i a rest : lex_ip i = LOk a rest -> rhs_src (RIp a).
Proof. intros E. exists TIp, i, rest. unfold lex_rhs. now rewrite E. Qed.
Lemma bytes_src i p rest : lex_bytes i = LOk p rest -> rhs_src (RBytes (fst p) (snd p)).
Proof. intros E. exists TBytes, i, rest. unfold lex_rhs. now rewrite E. Qed.

(* where the payload of a comparison comes from, for the payloads that are more than text *)
Definition op_src (op : cmpop) : Prop :=
  match op with
  | COrd _ r => rhs_src r
  | COneOfIp l => exists i rest, lex_brace_list lex_ip_range i = LOk l rest
  | CInList _ name => exists i rest, lex_list_name i = LOk name rest
  | _ => True
  end.

(* every accepting branch binds the result of one literal lexer and makes it the payload *)
Lemma cmp_rhs_ok sch st lhs lt input e rest :
  cmp_rhs sch st lhs lt input = LOk e rest -> exists op, e = EComparison lhs op /\ op_src op.
Proof.
  unfold cmp_rhs. destruct (lex_alts comparison_ops (skip_space input)) as [[o after]|]; [|discriminate].
  destruct o, lt; cbn [negb]; try discriminate; try destruct (starts_with [36] _).
  all: intros H; apply lbind_ok in H; destruct H as (x & r & E & H).
  all: try destruct (list_index sch _); try discriminate H; injection H as <- _.
  all: eexists; split; [reflexivity|unfold op_src, rhs_src; eauto].
Qed.

(* lex_with_lhs calls no parser function: what it accepts is a comparison on the left-hand side it was given *)
Lemma with_lhs_ok sch st f d input lhs e rest :
  lex_with_lhs sch st f d input lhs = LOk e rest -> exists op, e = EComparison lhs op /\ op_src op.
Proof.
  destruct f as [|f]; [discriminate|].
  destruct (lex_with_lhs_cases sch st f d input lhs) as [->|[->|[->|(lt & _ & ->)]]]; try discriminate; [|apply cmp_rhs_ok].
  intros H. injection H as <- _. exists CIsTrue. now split.
Qed.

(* [literal]: an address, else an integer, else a byte string *)
Definition arg_literal (input : bytes) : lres arg :=
  match lex_ip input with
  | LOk a rest => LOk (ALit (RIp a)) rest
  | LPanic => LPanic
  | LFuel => LFuel
  | LErr _ _ _ =>
      match lex_int input with
      | LOk z rest => LOk (ALit (RInt z)) rest
      | LPanic => LPanic
      | LFuel => LFuel
      | LErr _ _ _ =>
          match lex_bytes input with
          | LOk p rest => LOk (ALit (RBytes (fst p) (snd p))) rest
          | LPanic => LPanic
          | LFuel => LFuel
          | LErr _ _ _ => LErr EEOF input (length input)
          end
      end
  end.

(* [index_or_cmp literal propagate] *)
Definition arg_index_or_cmp (sch : scheme) (st : settings) (f : nat) (d : N) (input : bytes) (propagate : bool)
  : lres arg :=
  match lex_index_expr sch st f d input with
  | LOk lhs rest =>
      match lex_alts comparison_ops (skip_space rest) with
      | Some _ => lmap ALogical (lex_with_lhs sch st f d rest lhs)
      | None => LOk (AIndex lhs) rest
      end
  | LErr k a n => if propagate then LErr k a n else arg_literal input
  | LPanic => LPanic
  | LFuel => LFuel
  end.

(* An argument is a byte string, a parenthesised / negated / quantified
   expression, or an index expression (possibly compared); in the last case an
   error is final when the first three characters pass the identifier test. *)
Lemma lex_arg_S input :
  (forall sch st f d, lex_arg sch st (S f) d input = lmap (fun p => ALit (RBytes (fst p) (snd p))) (lex_bytes input)) \/
  (forall sch st f d, lex_arg sch st (S f) d input = lmap ALogical (lex_logical sch st f d input)) \/
  (forall sch st f d, lex_arg sch st (S f) d input =
     arg_index_or_cmp sch st f d input
       (let '(c1, c2, c3) := first_chars input in
        one_ascii c1 c_is_field
        || (one_ascii c1 c_is_field_or_int && one_ascii c2 c_is_field)
        || (one_ascii c1 c_is_field_or_int && one_ascii c2 c_is_field_or_int && one_ascii c3 c_is_field))).
Proof.
  cbn [lex_arg]. destruct (first_chars input) as [[[b1|] c2] c3]; [|right; right; reflexivity].
  destruct ((b1 =? 34) || _); [left; reflexivity|].
  destruct (_ || _ || _); [right; left; reflexivity|].
  right; right. intros. destruct (_ || _ || _); reflexivity.
Qed.

(* [finish]: at `)` or at the end of the input *)
Definition call_args_finish (def : fn_def) (acc : list arg) (input : bytes) : lres (list arg) :=
  if Nat.ltb (length acc) (if fn_variadic_same def then 2%nat else length (fn_params def))
  then LErr EInvalidArgumentsCount input (length input)
  else lbind (expect [41] input) (fun _ rest => LOk acc rest).

(* one more argument [a], read from [input2] up to [rest], after [acc] *)
Definition call_args_push (sch : scheme) (st : settings) (f : nat) (d : N) (def : fn_def) (acc : list arg)
    (input2 : bytes) (a : arg) (rest : bytes) : lres (list arg) :=
  if Nat.ltb 0 (arg_map_each_count a) && negb (Nat.eqb (length acc) 0)
  then LErr EInvalidMapEachAccess input2 (span_len input2 rest)
  else if negb (fn_variadic_same def) && Nat.leb (length (fn_params def) + length (fn_opt_params def)) (length acc)
  then LErr EInvalidArgumentsCount input2 (length input2)
  else
    match ty_arg sch a with
    | None => LPanic
    | Some t =>
        match check_param sch def acc a t with
        | PcOk => lex_call_args sch st f d (skip_space rest) def (acc ++ [a])
        | PcKind => LErr EInvalidArgumentKind input2 (span_len input2 rest)
        | PcType => LErr EInvalidArgumentType input2 (span_len input2 rest)
        | PcUnreachable => LPanic
        end
    end.

Definition call_args_next (sch : scheme) (st : settings) (f : nat) (d : N) (input : bytes) (def : fn_def)
    (acc : list arg) : lres (list arg) :=
  lbind (if Nat.eqb (length acc) 0 then LOk tt input else expect [44] input) (fun _ input1 =>
    match lex_arg sch st f d (skip_space input1) with
    | LOk a rest => call_args_push sch st f d def acc (skip_space input1) a rest
    | LErr k a n => LErr k a n
    | LPanic => LPanic
    | LFuel => LFuel
    end).

Lemma match_41 {A} (b : N) (x y : A) : b <> 41 -> match b with 41 => x | _ => y end = y.
Proof.
  intros H. other_byte b (eq_refl y).
Qed.

Lemma lex_call_args_more sch st f d input def acc : match input with b :: _ => b <> 41 | [] => False end ->
  lex_call_args sch st (S f) d input def acc = call_args_next sch st f d input def acc.
Proof. destruct input as [|b r]; [intros []|]. intros H. cbn [lex_call_args]. exact (match_41 b _ _ H). Qed.

Lemma lex_call_args_S input :
  (forall sch st f d def acc, lex_call_args sch st (S f) d input def acc = call_args_finish def acc input) \/
  (forall sch st f d def acc, lex_call_args sch st (S f) d input def acc = call_args_next sch st f d input def acc).
Proof.
  destruct input as [|b r]; [left; reflexivity|].
  destruct (N.eq_dec b 41) as [->|N41]; [left; reflexivity|right; intros]. now apply lex_call_args_more.
Qed.

(* [*] is allowed in the first argument only *)
Lemma map_each_first_only a (acc : list arg) :
  Nat.ltb 0 (arg_map_each_count a) && negb (Nat.eqb (length acc) 0) = false ->
  arg_map_each_count a = 0%nat \/ acc = [].
Proof.
  intros Em. apply andb_false_iff in Em. destruct Em as [Em|Em].
  - left. apply PeanoNat.Nat.ltb_ge in Em. now apply PeanoNat.Nat.le_0_r.
  - right. apply negb_false_iff, PeanoNat.Nat.eqb_eq in Em. now destruct acc.
Qed.

Lemma call_args_push_ok sch st f d def acc input2 a rest l r :
  call_args_push sch st f d def acc input2 a rest = LOk l r ->
  (arg_map_each_count a = 0%nat \/ acc = []) /\
  exists t, ty_arg sch a = Some t /\ check_param sch def acc a t = PcOk /\
            lex_call_args sch st f d (skip_space rest) def (acc ++ [a]) = LOk l r.
Proof.
  unfold call_args_push. destruct (Nat.ltb 0 _ && _) eqn:Em; [discriminate|].
  destruct (negb _ && _); [discriminate|]. destruct (ty_arg sch a) as [t|]; [|discriminate].
  destruct (check_param sch def acc a t) eqn:Ec; try discriminate. intros H. split; [now apply map_each_first_only|eauto].
Qed.

(* the argument [a] of `any(` / `all(`, read from [arg_in] up to [rest2] *)
Definition quant_arg (sch : scheme) (q : quant) (arg_in : bytes) (a : arg) (rest2 : bytes) : lres lexpr :=
  let sp := span_len arg_in rest2 in
  let done (e : lexpr) : lres lexpr := lbind (expect [41] (skip_space rest2)) (fun _ rest3 => LOk e rest3) in
  match a with
  | AIndex ie =>
      if Nat.ltb 0 (map_each_count (iexpr_idx ie))
      then LErr EInvalidMapEachAccess arg_in sp
      else
        match ty_iexpr sch ie with
        | Some (TArray TBool) => done (EQuantIndex q ie)
        | Some _ => LErr ETypeMismatch arg_in sp
        | None => LPanic
        end
  | ALogical le =>
      match ty_lexpr sch le with
      | Some (TArray TBool) => done (EQuantLogical q le)
      | Some _ => LErr ETypeMismatch arg_in sp
      | None => LPanic
      end
  | ALit _ => LErr ETypeMismatch arg_in sp
  end.

Lemma lex_simple_S sch st f d input :
  lex_simple sch st (S f) d input =
  match starts_with [40] input with
  | Some rest =>
      lbind (increase st d input) (fun d' _ =>
        lbind (lex_logical sch st f d' (skip_space rest)) (fun e rest1 =>
          lbind (expect [41] (skip_space rest1)) (fun _ rest2 => LOk (EParen e) rest2)))
  | None =>
      match lex_alts unary_ops input with
      | Some (_, rest) =>
          lbind (increase st d input) (fun d' _ =>
            lbind (lex_simple sch st f d' (skip_space rest)) (fun arg rest1 => LOk (ENot arg) rest1))
      | None =>
          match lex_quant_call input with
          | Some (q, rest) =>
              lbind (increase st d (skip_space rest)) (fun d' _ =>
                lbind (expect [40] (skip_space rest)) (fun _ rest1 =>
                  match lex_arg sch st f d' (skip_space rest1) with
                  | LOk a rest2 => quant_arg sch q (skip_space rest1) a rest2
                  | LErr k a n => LErr k a n
                  | LPanic => LPanic
                  | LFuel => LFuel
                  end))
          | None => lbind (lex_index_expr sch st f d input) (fun lhs rest => lex_with_lhs sch st f d rest lhs)
          end
      end
  end.
Proof. reflexivity. Qed.

Lemma quant_arg_ok sch q arg_in a rest2 e r :
  quant_arg sch q arg_in a rest2 = LOk e r ->
  expect [41] (skip_space rest2) = LOk tt r /\
  ((exists ie, a = AIndex ie /\ e = EQuantIndex q ie /\
               Nat.ltb 0 (map_each_count (iexpr_idx ie)) = false /\ ty_iexpr sch ie = Some (TArray TBool)) \/
   (exists le, a = ALogical le /\ e = EQuantLogical q le /\ ty_lexpr sch le = Some (TArray TBool))).
Proof.
  assert (Hdone : forall e0, lbind (expect [41] (skip_space rest2)) (fun _ rest3 => LOk e0 rest3) = LOk e r ->
                             expect [41] (skip_space rest2) = LOk tt r /\ e = e0).
  { intros e0 H. apply lbind_ok in H. destruct H as ([] & r3 & H3 & H). now injection H as <- <-. }
  unfold quant_arg. destruct a as [ie|lit|le]; [| discriminate |].
  - destruct (Nat.ltb 0 _) eqn:Em; [discriminate|].
    destruct (ty_iexpr sch ie) as [[| | | |[]|]|] eqn:Et; try discriminate.
    intros H. apply Hdone in H. destruct H as [H ->]. split; [exact H|left; eauto].
  - destruct (ty_lexpr sch le) as [[| | | |[]|]|] eqn:Et; try discriminate.
    intros H. apply Hdone in H. destruct H as [H ->]. split; [exact H|right; eauto].
Qed.
