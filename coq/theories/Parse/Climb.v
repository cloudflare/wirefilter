(* Precedence climbing = the stratified grammar, on abstract chains.
   [More]/[Inner] mirror LogicalExpr::lex_more_with_precedence and its inner
   `loop` (engine/src/ast/logical_expr.rs) on a chain  s1 op1 s2 op2 ... ;
   [build_or] is the grammar  or-list of xor-lists of and-lists  with
   same-operator runs flattened into one node.  The theorem says the loop
   returns exactly that tree for chains of any length and operator mix, i.e.
   binding strength  and > xor > or  (and `not`, parsed inside the simple
   expressions, binds tightest). *)
From Coq Require Import List Arith Lia Bool.
Import ListNotations.

Inductive op := Or | Xor | And.
Definition lvl (o : op) : nat := match o with Or => 1 | Xor => 2 | And => 3 end.
Definition op_eqb (a b : op) := Nat.eqb (lvl a) (lvl b).

Section Climb.
(* the atoms (simple expressions) are of an arbitrary type: the theorem is instantiated at the parser
   model's own AST in Proofs/ClimbText.v *)
Context {A : Type}.

Inductive expr := Atom (a : A) | Comb (o : op) (items : list expr).
Definition chain := list (op * expr).
Definition simple (e : expr) := match e with Atom _ => True | Comb _ _ => False end.

Definition combine (lhs : expr) (o : op) (rhs : expr) : expr :=
  match lhs with
  | Comb o' items => if op_eqb o' o then Comb o (items ++ [rhs]) else Comb o [lhs; rhs]
  | _ => Comb o [lhs; rhs]
  end.

Definition olt (a b : option op) : bool :=
  match a, b with
  | None, None => false | None, Some _ => true | Some _, None => false
  | Some x, Some y => Nat.ltb (lvl x) (lvl y) end.
Definition ole a b := negb (olt b a).
Definition hd_op (c : chain) : option op := match c with [] => None | (o, _) :: _ => Some o end.

Inductive More : expr -> option op -> chain -> expr * chain -> Prop :=
| M_nil lhs minp : More lhs minp [] (lhs, [])
| M_stop lhs minp o s tl rhs tl' :
    Inner s o tl (rhs, tl') -> olt (hd_op tl') minp = true ->
    More lhs minp ((o, s) :: tl) (combine lhs o rhs, tl')
| M_cont lhs minp o s tl rhs tl' r :
    Inner s o tl (rhs, tl') -> olt (hd_op tl') minp = false ->
    More (combine lhs o rhs) minp tl' r ->
    More lhs minp ((o, s) :: tl) r
with Inner : expr -> op -> chain -> expr * chain -> Prop :=
| I_break rhs o tl : ole (hd_op tl) (Some o) = true -> Inner rhs o tl (rhs, tl)
| I_rec rhs o tl rhs' tl' r :
    ole (hd_op tl) (Some o) = false ->
    More rhs (hd_op tl) tl (rhs', tl') -> Inner rhs' o tl' r -> Inner rhs o tl r.

Definition andl := (expr * list expr)%type.
Definition xorl := (andl * list andl)%type.
Definition orl := (xorl * list xorl)%type.

Definition mk (o : op) (first : expr) (rest : list expr) : expr :=
  match rest with [] => first | _ => Comb o (first :: rest) end.
Definition build_and (a : andl) := mk And (fst a) (snd a).
Definition build_xor (x : xorl) := mk Xor (build_and (fst x)) (map build_and (snd x)).
Definition build_or (x : orl) := mk Or (build_xor (fst x)) (map build_xor (snd x)).

Definition tail_and (l : list expr) : chain := map (fun s => (And, s)) l.
Definition item_xor (a : andl) : chain := (Xor, fst a) :: tail_and (snd a).
Definition tail_xor (l : list andl) : chain := concat (map item_xor l).
Definition first_xor (x : xorl) := fst (fst x).
Definition rest_xor (x : xorl) : chain := tail_and (snd (fst x)) ++ tail_xor (snd x).
Definition item_or (x : xorl) : chain := (Or, first_xor x) :: rest_xor x.
Definition tail_or (l : list xorl) : chain := concat (map item_or l).
Definition first_or (x : orl) := first_xor (fst x).
Definition rest_or (x : orl) : chain := rest_xor (fst x) ++ tail_or (snd x).

Definition simple_andl (a : andl) := simple (fst a).
Definition simple_xorl (x : xorl) := simple_andl (fst x) /\ Forall simple_andl (snd x).
Definition simple_orl (x : orl) := simple_xorl (fst x) /\ Forall simple_xorl (snd x).

(* "state after one loop iteration": either the loop stops here or it goes on *)
Definition After (lhs : expr) (minp : option op) (c : chain) (r : expr * chain) : Prop :=
  (olt (hd_op c) minp = true /\ r = (lhs, c)) \/ (olt (hd_op c) minp = false /\ More lhs minp c r).

Lemma iter lhs minp o s tl rhs tl' r :
  Inner s o tl (rhs, tl') -> After (combine lhs o rhs) minp tl' r -> More lhs minp ((o, s) :: tl) r.
Proof.
  intros HI [[H ->]|[H HM]]; [eapply M_stop | eapply M_cont]; eauto.
Qed.

Lemma After_more lhs minp c r : olt (hd_op c) minp = false -> After lhs minp c r -> More lhs minp c r.
Proof. intros H [[H' _]|[_ HM]]; [congruence|exact HM]. Qed.

Definition comb_all (lhs : expr) (o : op) (l : list expr) := fold_left (fun acc s => combine acc o s) l lhs.

Definition not_comb (o : op) (e : expr) :=
  match e with Comb o' _ => op_eqb o' o = false | _ => True end.

Lemma comb_all_push o : forall l items, comb_all (Comb o items) o l = Comb o (items ++ l).
Proof.
  unfold comb_all. induction l as [|x l IH]; intros items; cbn [fold_left].
  - now rewrite app_nil_r.
  - cbn [combine]. unfold op_eqb at 1. rewrite Nat.eqb_refl. rewrite IH, <- app_assoc. reflexivity.
Qed.

Lemma comb_all_mk o lhs l : not_comb o lhs -> comb_all lhs o l = mk o lhs l.
Proof.
  intros Hn. destruct l as [|x l]; [reflexivity|]. cbn [comb_all fold_left].
  assert (E : combine lhs o x = Comb o [lhs; x]).
  { destruct lhs; cbn in *; auto. now rewrite Hn. }
  rewrite E. apply comb_all_push.
Qed.

Lemma simple_not_comb o s : simple s -> not_comb o s.
Proof. destruct s; [trivial|intros []]. Qed.

Lemma hd_le_and c : ole (hd_op c) (Some And) = true.
Proof. destruct c as [|[[] ?] ?]; reflexivity. Qed.

Lemma and_run : forall l lhs minp rest r,
  olt (Some And) minp = false ->
  After (comb_all lhs And l) minp rest r -> After lhs minp (tail_and l ++ rest) r.
Proof.
  induction l as [|s l IH]; intros lhs minp rest r Hm HA; [exact HA|].
  right. split; [exact Hm|]. cbn [tail_and map app].
  eapply iter; [apply I_break, hd_le_and|]. apply IH; auto.
Qed.

Definition no_and (c : chain) := hd_op c <> Some And.

Lemma inner_and s o l rest :
  simple s -> o <> And -> no_and rest ->
  forall r, Inner (build_and (s, l)) o rest r -> Inner s o (tail_and l ++ rest) r.
Proof.
  intros Hs Ho Hr r HI. destruct l as [|x l]; [exact HI|].
  eapply I_rec with (rhs' := build_and (s, x :: l)) (tl' := rest); [destruct o; cbn; congruence| |exact HI].
  apply After_more; [reflexivity|]. apply and_run; [reflexivity|]. left. split.
  - destruct rest as [|[[] ?] ?]; cbn; auto; now elim Hr.
  - unfold build_and. cbn [fst snd]. now rewrite comb_all_mk by now apply simple_not_comb.
Qed.

Lemma build_and_not_comb o a : simple_andl a -> o <> And -> not_comb o (build_and a).
Proof.
  destruct a as [s [|x l]]; unfold simple_andl, build_and; cbn; intros Hs Ho.
  - now apply simple_not_comb.
  - destruct o; cbn; congruence.
Qed.

Lemma no_and_tail_xor l rest : no_and rest -> no_and (tail_xor l ++ rest).
Proof. destruct l; cbn; auto. unfold no_and; cbn; congruence. Qed.

Lemma hd_le_xor c : no_and c -> ole (hd_op c) (Some Xor) = true.
Proof. destruct c as [|[[] ?] ?]; cbn; auto; intros H; now elim H. Qed.

Lemma xor_run : forall l lhs minp rest r,
  Forall simple_andl l -> no_and rest ->
  olt (Some Xor) minp = false ->
  After (comb_all lhs Xor (map build_and l)) minp rest r -> After lhs minp (tail_xor l ++ rest) r.
Proof.
  induction l as [|a l IH]; intros lhs minp rest r Hl Hr Hm HA; [exact HA|].
  inversion Hl as [|? ? Ha Hl']; subst.
  right. split; [exact Hm|].
  change (tail_xor (a :: l)) with (item_xor a ++ tail_xor l). rewrite <- app_assoc.
  unfold item_xor. cbn [app].
  eapply iter with (rhs := build_and a) (tl' := tail_xor l ++ rest).
  - destruct a as [s la]. apply inner_and; auto; [congruence | now apply no_and_tail_xor |].
    apply I_break, hd_le_xor, no_and_tail_xor; auto.
  - apply IH; auto.
Qed.

Definition le_or (c : chain) := olt (hd_op c) (Some Xor) = true.  (* next op is Or or none *)

Lemma le_or_no_and c : le_or c -> no_and c.
Proof. destruct c as [|[[] ?] ?]; unfold le_or, no_and; cbn; congruence. Qed.

Lemma build_xor_not_comb x : simple_xorl x -> not_comb Or (build_xor x).
Proof.
  destruct x as [a [|b l]]; unfold simple_xorl, build_xor; cbn [fst snd map mk]; intros [Ha _].
  - apply build_and_not_comb; auto; congruence.
  - reflexivity.
Qed.

Lemma inner_xor x rest :
  simple_xorl x -> le_or rest ->
  forall r, Inner (build_xor x) Or rest r -> Inner (first_xor x) Or (rest_xor x ++ rest) r.
Proof.
  intros [Ha Hl] Hr r HI. destruct x as [[s la] l]. unfold first_xor, rest_xor. cbn [fst snd] in *.
  rewrite <- app_assoc.
  apply inner_and; auto; [congruence | apply no_and_tail_xor, le_or_no_and; auto |].
  destruct l as [|b l]; [exact HI|].
  eapply I_rec with (rhs' := build_xor ((s, la), b :: l)) (tl' := rest); [reflexivity| |exact HI].
  apply After_more; [reflexivity|]. apply xor_run; [exact Hl|now apply le_or_no_and|reflexivity|].
  left. split; [exact Hr|]. unfold build_xor. cbn [fst snd]. rewrite comb_all_mk; auto.
  apply build_and_not_comb; auto; congruence.
Qed.

Lemma le_or_tail_or l : le_or (tail_or l).
Proof. destruct l; reflexivity. Qed.

Lemma or_run : forall l lhs r,
  Forall simple_xorl l ->
  After (comb_all lhs Or (map build_xor l)) None [] r -> After lhs None (tail_or l) r.
Proof.
  induction l as [|x l IH]; intros lhs r Hl HA; [exact HA|].
  inversion Hl as [|? ? Hx Hl']; subst.
  right. split; [reflexivity|].
  change (tail_or (x :: l)) with (item_or x ++ tail_or l).
  unfold item_or. cbn [app].
  eapply iter with (rhs := build_xor x) (tl' := tail_or l).
  - apply inner_xor; auto; [apply le_or_tail_or|].
    apply I_break. destruct l; reflexivity.
  - apply IH; auto.
Qed.

Theorem climb_is_stratified (x : orl) :
  simple_orl x -> More (first_or x) None (rest_or x) (build_or x, []).
Proof.
  intros [[Ha Hl] Hxs]. destruct x as [[[s la] l] xs]. unfold first_or, rest_or, first_xor, rest_xor.
  cbn [fst snd] in *. apply After_more; [now destruct (_ ++ _) as [|[? ?] ?]|].
  rewrite <- app_assoc. apply and_run; [reflexivity|].
  apply xor_run; [exact Hl | apply le_or_no_and, le_or_tail_or | reflexivity |].
  apply or_run; [exact Hxs|]. right. split; [reflexivity|].
  rewrite (comb_all_mk And s la) by now apply simple_not_comb.
  rewrite (comb_all_mk Xor) by (apply (build_and_not_comb Xor (s, la)); auto; congruence).
  rewrite (comb_all_mk Or) by (apply (build_xor_not_comb ((s, la), l)); split; auto).
  apply M_nil.
Qed.

End Climb.
