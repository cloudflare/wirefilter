(* C15 — Type and scheme encodings round-trip; over-deep or duplicate input is
   refused.  The property theorems, each an instance of a general lemma of
   Proofs/TypeCodecProofs.v or a few lines from them, and their non-vacuity examples. *)
From Coq Require Import List ZArith Permutation Sorted.
From WF Require Import Base.Bytes Lang.Types Sem.TypeCodec Spec.C15 Proofs.TypeCodecProofs.
Import ListNotations.
Open Scope N_scope.

(* Every type with at most 32 container layers flattens (no panic) to a
   well-formed packed value that unfolds to the same type. *)
Theorem C15_from_into_type_inverse : forall t : ty,
  (depth t <= 32)%nat -> exists c, from_type t = Some c /\ into_type c = t /\ ct_wf c.
Proof. exact from_into_type_inverse. Qed.

(* Conversely every well-formed packed value is the flattening of its unfolding. *)
Theorem C15_into_from_type_inverse : forall c : ctype,
  ct_wf c -> from_type (into_type c) = Some c.
Proof. exact from_into_type. Qed.

(* The packed value is exactly the specified one: len = number of layers, bit i
   from the least significant end = the i-th layer from the outside is a map;
   more than 32 layers cannot be flattened (from_type panics). *)
Theorem C15_compound_is_spec : forall t : ty, from_type t = spec_pack t.
Proof. exact from_type_spec. Qed.

Theorem C15_packed_bit_order : forall (t : ty) (c : ctype) (i : nat) (l : layer),
  from_type t = Some c -> nth_error (layers_of t) i = Some l ->
  N.testbit (ct_layers c) (N.of_nat i) = is_map l.
Proof. exact packed_bit_order. Qed.

Theorem C15_unpack_is_spec : forall c : ctype, ct_len c < 256 ->
  into_type c = spec_unpack (ct_layers c) (N.to_nat (ct_len c)) (ct_prim c).
Proof. exact into_type_spec. Qed.

(* the specification itself is coherent *)
Theorem C15_spec_pack_unpack : forall c : ctype, ct_wf c ->
  spec_pack (spec_unpack (ct_layers c) (N.to_nat (ct_len c)) (ct_prim c)) = Some c.
Proof. exact spec_pack_unpack. Qed.

Theorem C15_ctype_matches_compound : forall (t : ty) (c : ctype),
  from_type t = Some c ->
  cty_of_type t = Some (cty_of_compound c) /\ type_of_cty (cty_of_compound c) = Some t.
Proof. exact ctype_matches_compound. Qed.

Theorem C15_ctype_roundtrip : forall y : cty,
  cy_wf y ->
  exists t, type_of_cty y = Some t /\ cty_of_type t = Some y /\ depth t = N.to_nat (cy_len y).
Proof. exact ctype_roundtrip. Qed.

(* every `Type` value (at most 33 layers: one layer around a packed element)
   comes back from its JSON form *)
Theorem C15_type_json_roundtrip : forall t : ty,
  (depth t <= 33)%nat -> type_of_json (type_to_json t) = Ok t.
Proof. exact type_json_roundtrip. Qed.

(* for every JSON value the reader is the specified one ... *)
Theorem C15_type_json_exact : forall j : json, type_of_json j = spec_type_of_json j.
Proof. exact type_of_json_spec. Qed.

(* ... so a too deep type is an error (INTENDED behaviour: the code panics,
   finding F4) ... *)
Theorem C15_too_deep_rejected_not_panic : forall t : ty,
  (33 < depth t)%nat -> type_of_json (type_to_json t) = Err.
Proof. exact too_deep_rejected. Qed.

(* ... and never accepted as a different type *)
Theorem C15_type_json_never_another_type : forall (j : json) (t : ty),
  type_of_json j = Ok t -> json_type j = Some t /\ (depth t <= 33)%nat.
Proof.
  intros j t. rewrite type_of_json_spec. unfold spec_type_of_json.
  destruct (json_type j) as [t'|]; [|discriminate]. destruct (Nat.leb_spec (depth t') 33); [|discriminate].
  now intros [= <-].
Qed.

(* names, order, types and optionality survive, however the JSON is supplied
   (INTENDED behaviour: the code fails for reader / value / escaped keys,
   finding F5); a value tree hands the fields back ordered by name *)
Theorem C15_scheme_roundtrip : forall (e : entry) (fs : list field_def),
  Forall depth_ok fs -> distinctb (names fs) = true ->
  scheme_of_json (supply e (scheme_to_json fs)) = Ok (supplied_order e fs).
Proof. exact scheme_roundtrip. Qed.

Theorem C15_scheme_roundtrip_from_builder : forall (e : entry) (fs : list field_def),
  Forall depth_ok fs ->
  match sb_add_fields fs [] with
  | Ok fs' => scheme_of_json (supply e (scheme_to_json fs'))
  | Err => Err
  end = spec_scheme_roundtrip e fs.
Proof.
  intros e fs HF. rewrite builder_spec. unfold spec_scheme_roundtrip.
  destruct (distinctb (map fd_name fs)) eqn:Hd; [|reflexivity]. now apply scheme_roundtrip.
Qed.

Theorem C15_by_name_same_fields : forall fs : list field_def,
  NoDup (names fs) -> Permutation fs (fields_by_name fs).
Proof. exact fields_by_name_perm. Qed.

Theorem C15_by_name_sorted : forall fs : list field_def, Sorted name_lt (fields_by_name fs).
Proof. exact fields_by_name_sorted. Qed.

Theorem C15_scheme_json_exact : forall j : json, scheme_of_json j = spec_scheme_of_json j.
Proof. exact scheme_of_json_spec. Qed.

Theorem C15_duplicate_rejected : forall es : list (bytes * json),
  ~ NoDup (map fst es) -> scheme_of_json (JObj es) = Err.
Proof. exact duplicate_rejected. Qed.

Theorem C15_scheme_names_in_order : forall (es : list (bytes * json)) (fs : list field_def),
  scheme_of_json (JObj es) = Ok fs -> NoDup (map fst es) /\ map fd_name fs = map fst es.
Proof. exact scheme_of_json_names. Qed.

Theorem C15_builder_duplicate_rejected : forall fs : list field_def,
  sb_add_fields fs [] = if distinctb (map fd_name fs) then Ok fs else Err.
Proof. exact builder_spec. Qed.

(* Outside the property's domain.  A `Type` may have 33 layers.  The C API form of such a type has len = 33 and
   has lost its innermost layer (u32 shift), so converting back gives another
   type: ffi CType::push has no bound check. *)
Definition t33 : ty :=
  Nat.iter 32 TArray (TMap TInt).

Theorem C15_ctype_beyond_32_lossy :
  rust_type_exists t33 = true /\
  exists y t', cty_of_type t33 = Some y /\ cy_len y = 33 /\ type_of_cty y = Some t' /\ t' <> t33.
Proof.
  split; [vm_compute; reflexivity|].
  eexists; eexists. split; [vm_compute; reflexivity|]. split; [reflexivity|].
  split; [vm_compute; reflexivity|]. vm_compute. discriminate.
Qed.

Definition t32 : ty := Nat.iter 16 (fun t => TArray (TMap t)) TBytes.

Example C15_premise_32_layers : (depth t32 <= 32)%nat /\ depth t32 = 32%nat.
Proof. vm_compute. split; [repeat constructor|reflexivity]. Qed.

Example C15_roundtrip_32_layers_nontrivial :
  from_type t32 = Some (mk_ctype 2863311530 32 PBytes) /\
  into_type (mk_ctype 2863311530 32 PBytes) = t32.
Proof. split; vm_compute; reflexivity. Qed.

Example C15_wf_satisfiable : ct_wf (mk_ctype 4294967295 32 PIp) /\ cy_wf (mk_cty 5 3 2).
Proof. unfold ct_wf, cy_wf; cbn. repeat split; try reflexivity; discriminate. Qed.

Example C15_too_deep_premise : (33 < depth (TMap t33))%nat /\ type_of_json (type_to_json (TMap t33)) = Err.
Proof. split; [vm_compute; repeat constructor|vm_compute; reflexivity]. Qed.

Definition two_fields : list field_def :=
  [ {| fd_name := [98]; fd_ty := TArray TIp; fd_optional := true |};
    {| fd_name := [97; 46; 34]; fd_ty := TInt; fd_optional := false |} ].

Example C15_scheme_premise_satisfiable :
  Forall depth_ok two_fields /\ distinctb (names two_fields) = true /\
  supplied_order EValue two_fields = rev two_fields /\
  scheme_of_json (supply EValue (scheme_to_json two_fields)) = Ok (rev two_fields).
Proof.
  split; [repeat constructor; unfold depth_ok; vm_compute; repeat constructor|].
  split; [reflexivity|]. split; vm_compute; reflexivity.
Qed.

Example C15_duplicate_premise_satisfiable :
  ~ NoDup (map fst [([97], JNull); ([97], JNull)]).
Proof. intros H. inversion H as [|x l Hin _]; subst. apply Hin. now left. Qed.

Check C15_from_into_type_inverse : forall t : ty,
  (depth t <= 32)%nat -> exists c, from_type t = Some c /\ into_type c = t /\ ct_wf c.
Check C15_into_from_type_inverse : forall c : ctype, ct_wf c -> from_type (into_type c) = Some c.
Check C15_ctype_matches_compound : forall (t : ty) (c : ctype),
  from_type t = Some c ->
  cty_of_type t = Some (cty_of_compound c) /\ type_of_cty (cty_of_compound c) = Some t.
Check C15_type_json_roundtrip : forall t : ty,
  (depth t <= 33)%nat -> type_of_json (type_to_json t) = Ok t.
Check C15_too_deep_rejected_not_panic : forall t : ty,
  (33 < depth t)%nat -> type_of_json (type_to_json t) = Err.
Check C15_scheme_roundtrip : forall (e : entry) (fs : list field_def),
  Forall depth_ok fs -> distinctb (names fs) = true ->
  scheme_of_json (supply e (scheme_to_json fs)) = Ok (supplied_order e fs).
Check C15_duplicate_rejected : forall es : list (bytes * json),
  ~ NoDup (map fst es) -> scheme_of_json (JObj es) = Err.
