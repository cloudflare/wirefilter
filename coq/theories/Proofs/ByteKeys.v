(* Byte strings as keys: the equality tests of [bytes] and [ty] decided, the
   order on [bytes], and association lists kept in ascending key order by
   [bt_insert] (BTreeMap::insert). *)
From Coq Require Import List NArith Bool Permutation.
From WF Require Import Base.Bytes Lang.Types Lang.Context Sem.TypeCodec.
Import ListNotations.

Lemma bytes_eqb_spec a : forall b, reflect (a = b) (bytes_eqb a b).
Proof.
  induction a as [|x a IH]; intros [|y b]; cbn [bytes_eqb]; try (constructor; congruence).
  destruct (N.eqb_spec x y) as [->|]; [|constructor; congruence].
  destruct (IH b) as [->|]; constructor; congruence.
Qed.

Lemma bytes_eqb_refl a : bytes_eqb a a = true.
Proof. now destruct (bytes_eqb_spec a a). Qed.

Lemma bytes_eqb_eq a b : bytes_eqb a b = true -> a = b.
Proof. now destruct (bytes_eqb_spec a b). Qed.

Lemma bytes_eqb_iff a b : bytes_eqb a b = true <-> a = b.
Proof. destruct (bytes_eqb_spec a b); split; congruence. Qed.

Lemma existsb_In x l : existsb (bytes_eqb x) l = true <-> In x l.
Proof.
  rewrite existsb_exists. split.
  - intros (y & Hy & E). apply bytes_eqb_eq in E. now subst.
  - intros H. exists x. split; [assumption|apply bytes_eqb_refl].
Qed.

Lemma bytes_eqb_sym a b : bytes_eqb a b = bytes_eqb b a.
Proof. destruct (bytes_eqb_spec a b), (bytes_eqb_spec b a); congruence. Qed.

Lemma ty_eqb_spec a : forall b, reflect (a = b) (ty_eqb a b).
Proof.
  induction a as [| | | |a IH|a IH]; intros []; cbn; try (constructor; congruence);
    destruct (IH t); constructor; congruence.
Qed.

Lemma ty_eqb_refl t : ty_eqb t t = true.
Proof. now destruct (ty_eqb_spec t t). Qed.

Lemma ty_eqb_eq a b : ty_eqb a b = true -> a = b.
Proof. now destruct (ty_eqb_spec a b). Qed.

Lemma ty_eqb_neq a b : a <> b -> ty_eqb a b = false.
Proof. now destruct (ty_eqb_spec a b). Qed.

Lemma ty_eqb_sym a b : ty_eqb a b = ty_eqb b a.
Proof. destruct (ty_eqb_spec a b), (ty_eqb_spec b a); congruence. Qed.

Lemma bytes_compare_antisym a : forall b, bytes_compare b a = CompOpp (bytes_compare a b).
Proof.
  induction a as [|x a IH]; intros [|y b]; cbn; try reflexivity.
  rewrite (N.compare_antisym x y). destruct (x ?= y)%N; cbn; auto.
Qed.

Lemma bytes_compare_eq a : forall b, bytes_compare a b = Eq -> a = b.
Proof.
  induction a as [|x a IH]; intros [|y b] H; cbn in H; try discriminate; [reflexivity|].
  destruct (N.compare_spec x y) as [->| |]; try discriminate. f_equal. now apply IH.
Qed.

Lemma bytes_compare_refl a : bytes_compare a a = Eq.
Proof. induction a as [|x a IH]; cbn; [reflexivity|]. now rewrite N.compare_refl. Qed.

Lemma bytes_compare_gt_lt a b : bytes_compare a b = Gt -> bytes_compare b a = Lt.
Proof. intros H. now rewrite (bytes_compare_antisym a b), H. Qed.

Lemma bytes_compare_lt_trans a : forall b c,
  bytes_compare a b = Lt -> bytes_compare b c = Lt -> bytes_compare a c = Lt.
Proof.
  induction a as [|x a IH]; intros [|y b] [|z c] Hab Hbc; cbn in *; try discriminate; try reflexivity.
  destruct (N.compare_spec x y) as [->|Hxy|]; try discriminate.
  - destruct (y ?= z)%N; try discriminate; [eapply IH; eassumption|reflexivity].
  - destruct (N.compare_spec y z) as [->|Hyz|]; try discriminate.
    + now apply N.compare_lt_iff in Hxy as ->.
    + now rewrite (proj2 (N.compare_lt_iff x z) (N.lt_trans _ _ _ Hxy Hyz)).
Qed.

Lemma bytes_compare_lt_neq a b : bytes_compare a b = Lt -> bytes_eqb a b = false.
Proof. intros H. destruct (bytes_eqb_spec a b) as [->|]; [|reflexivity]. now rewrite bytes_compare_refl in H. Qed.

Definition key_lt {A} (a b : bytes * A) : Prop := bytes_compare (fst a) (fst b) = Lt.

Fixpoint ssorted {A} (l : list (bytes * A)) : Prop :=
  match l with
  | [] => True
  | x :: r => Forall (key_lt x) r /\ ssorted r
  end.

Lemma key_lt_trans {A} (a b c : bytes * A) : key_lt a b -> key_lt b c -> key_lt a c.
Proof. apply bytes_compare_lt_trans. Qed.

Lemma key_lt_below {A} (x y : bytes * A) r : key_lt x y -> Forall (key_lt y) r -> Forall (key_lt x) r.
Proof. intros Hxy. apply Forall_impl. intros z. now apply key_lt_trans. Qed.

(* it is enough to compare neighbours *)
Lemma ssorted_cons2 {A} (x y : bytes * A) r : ssorted (x :: y :: r) <-> key_lt x y /\ ssorted (y :: r).
Proof.
  cbn. split.
  - intros [Hx Hr]. inversion Hx. now split.
  - intros (Hxy & Hy & Hr). repeat split; auto. constructor; [exact Hxy|]. now apply key_lt_below with y.
Qed.

Lemma keys_ascending_ssorted l : keys_ascending l = true <-> ssorted l.
Proof.
  induction l as [|[k v] l IH]; [easy|]. destruct l as [|[k2 v2] r]; [cbn; intuition|].
  rewrite ssorted_cons2, <- IH. unfold key_lt. cbn [keys_ascending fst].
  destruct (bytes_compare k k2); intuition congruence.
Qed.

Lemma ssorted_app_lt {A} (m : list (bytes * A)) x r : ssorted (m ++ x :: r) -> Forall (fun y => key_lt y x) m.
Proof.
  induction m as [|y m IH]; intros H; [constructor|]. destruct H as [H1 H2].
  constructor; [|now apply IH]. apply Forall_app in H1 as [_ H1]. now inversion H1.
Qed.

Lemma ssorted_NoDup {A} (l : list (bytes * A)) : ssorted l -> NoDup (map fst l).
Proof.
  induction l as [|[k v] l IH]; intros H; [constructor|]. destruct H as [H1 H2].
  constructor; [|now apply IH]. intros Hin. apply in_map_iff in Hin. destruct Hin as ([k' v'] & Hk & Hin).
  rewrite Forall_forall in H1. specialize (H1 _ Hin). unfold key_lt in H1. cbn in H1, Hk.
  now rewrite Hk, bytes_compare_refl in H1.
Qed.

Lemma assoc_below {A} k (v : A) r : Forall (key_lt (k, v)) r -> assoc_bytes k r = None.
Proof.
  induction 1 as [|[k1 v1] r H _ IH]; [reflexivity|]. cbn [assoc_bytes]. now rewrite (bytes_compare_lt_neq k k1 H).
Qed.

Lemma ssorted_assoc_ext {A} : forall l1 l2 : list (bytes * A),
  ssorted l1 -> ssorted l2 -> (forall q, assoc_bytes q l1 = assoc_bytes q l2) -> l1 = l2.
Proof.
  (* a list that starts above [k] does not hold [k] *)
  assert (Hhd : forall k (v : A) r l, Forall (key_lt (k, v)) l -> assoc_bytes k ((k, v) :: r) <> assoc_bytes k l).
  { intros k v r l Hl. cbn. now rewrite bytes_eqb_refl, (assoc_below k v l Hl). }
  induction l1 as [|[k1 v1] r1 IH]; intros [|[k2 v2] r2] H1 H2 Heq; [reflexivity| | |].
  - specialize (Heq k2). cbn in Heq. now rewrite bytes_eqb_refl in Heq.
  - specialize (Heq k1). cbn in Heq. now rewrite bytes_eqb_refl in Heq.
  - destruct H1 as [Hb1 H1], H2 as [Hb2 H2]. destruct (bytes_compare k1 k2) eqn:Hc.
    + apply bytes_compare_eq in Hc. subst k2.
      pose proof (Heq k1) as Hk. cbn in Hk. rewrite bytes_eqb_refl in Hk. injection Hk as <-.
      f_equal. apply IH; auto. intros q. generalize (Heq q). cbn.
      destruct (bytes_eqb_spec q k1) as [->|]; [intros _|auto].
      now rewrite (assoc_below k1 v1 r1 Hb1), (assoc_below k1 v1 r2 Hb2).
    + destruct (Hhd k1 v1 r1 ((k2, v2) :: r2)); [|apply Heq]. constructor; [exact Hc|]. now apply key_lt_below with (k2, v2).
    + apply bytes_compare_gt_lt in Hc. destruct (Hhd k2 v2 r2 ((k1, v1) :: r1)); [|symmetry; apply Heq].
      constructor; [exact Hc|]. now apply key_lt_below with (k1, v1).
Qed.

Lemma bt_insert_In {A} k (v : A) kv : forall m, In kv (bt_insert k v m) -> kv = (k, v) \/ In kv m.
Proof.
  induction m as [|[k' v'] m IH]; cbn [bt_insert]; [|destruct (bytes_compare k k')]; cbn; intuition.
Qed.

Lemma bt_insert_has {A} k (v : A) : forall m, In (k, v) (bt_insert k v m).
Proof. induction m as [|[k' v'] m IH]; cbn [bt_insert]; [|destruct (bytes_compare k k')]; cbn; auto. Qed.

Lemma bt_insert_keeps {A} k (v : A) k' v' : forall m, k' <> k -> In (k', v') m -> In (k', v') (bt_insert k v m).
Proof.
  induction m as [|[k1 v1] m IH]; intros Hne H; [destruct H|]. cbn [bt_insert].
  destruct (bytes_compare k k1) eqn:E; [apply bytes_compare_eq in E; subst k1| |]; cbn in *; intuition congruence.
Qed.

Lemma bt_insert_ssorted {A} k (v : A) : forall m, ssorted m -> ssorted (bt_insert k v m).
Proof.
  induction m as [|[k1 v1] m IH]; intros Hm; [now repeat constructor|]. destruct Hm as [Hb Hm]. cbn [bt_insert].
  destruct (bytes_compare k k1) eqn:E.
  - apply bytes_compare_eq in E. now subst k1.
  - repeat split; auto. constructor; [exact E|]. now apply key_lt_below with (k1, v1).
  - split; [|now apply IH]. apply Forall_forall. intros kv Hin.
    apply bt_insert_In in Hin as [->|Hin]; [now apply bytes_compare_gt_lt|]. rewrite Forall_forall in Hb. now apply Hb.
Qed.

Lemma bt_insert_last {A} k (v : A) : forall m, Forall (fun y => key_lt y (k, v)) m -> bt_insert k v m = m ++ [(k, v)].
Proof.
  induction 1 as [|[k' v'] m Hy _ IH]; [reflexivity|]. unfold key_lt in Hy. cbn in Hy.
  cbn [bt_insert app]. now rewrite (bytes_compare_antisym k' k), Hy, IH.
Qed.

Lemma assoc_bt_insert {A} q k (v : A) : forall l,
  assoc_bytes q (bt_insert k v l) = if bytes_eqb q k then Some v else assoc_bytes q l.
Proof.
  induction l as [|[k1 v1] r IH]; cbn [bt_insert assoc_bytes]; [reflexivity|].
  destruct (bytes_compare k k1) eqn:Hc; cbn [assoc_bytes].
  - apply bytes_compare_eq in Hc. subst k1. now destruct (bytes_eqb q k).
  - reflexivity.
  - rewrite IH. destruct (bytes_eqb_spec q k1) as [->|]; [|reflexivity].
    now rewrite (bytes_compare_lt_neq k1 k (bytes_compare_gt_lt _ _ Hc)).
Qed.

(* insertion looks at keys only *)
Definition keywise {A B} (R : A -> B -> Prop) (x : bytes * A) (y : bytes * B) : Prop :=
  fst x = fst y /\ R (snd x) (snd y).

Lemma bt_insert_keywise {A B} (R : A -> B -> Prop) k a b m n :
  R a b -> Forall2 (keywise R) m n -> Forall2 (keywise R) (bt_insert k a m) (bt_insert k b n).
Proof.
  intros Hab. induction 1 as [|[k1 a1] [k2 b1] m n [Hk Hr] Hmn IH]; [now repeat constructor|].
  cbn in Hk. subst k2. cbn [bt_insert]. destruct (bytes_compare k k1); repeat constructor; auto.
Qed.

Definition bt_add {A} (l m : list (bytes * A)) : list (bytes * A) :=
  fold_left (fun m kv => bt_insert (fst kv) (snd kv) m) l m.

Lemma bt_add_cons {A} k (v : A) l m : bt_add ((k, v) :: l) m = bt_add l (bt_insert k v m).
Proof. reflexivity. Qed.

(* a fold whose step is [bt_insert] seen through [h] is [bt_add] seen through [h] *)
Lemma bt_add_fold {X M A} (kv : X -> bytes * A) (ins : X -> M -> M) (h : M -> list (bytes * A)) :
  (forall x m, h (ins x m) = bt_insert (fst (kv x)) (snd (kv x)) (h m)) ->
  forall l m, h (fold_left (fun m x => ins x m) l m) = bt_add (map kv l) (h m).
Proof. intros H. induction l as [|x l IH]; intros m; [reflexivity|]. cbn [fold_left map]. now rewrite IH, H. Qed.

Lemma bt_add_ssorted {A} (l : list (bytes * A)) : forall m, ssorted m -> ssorted (bt_add l m).
Proof. induction l as [|[k v] l IH]; intros m Hm; [exact Hm|]. apply IH. now apply bt_insert_ssorted. Qed.

Lemma bt_add_sorted {A} (l : list (bytes * A)) : forall m, ssorted (m ++ l) -> bt_add l m = m ++ l.
Proof.
  induction l as [|[k v] l IH]; intros m Hs; [symmetry; apply app_nil_r|].
  rewrite bt_add_cons, (bt_insert_last k v m (ssorted_app_lt m (k, v) l Hs)), IH; now rewrite <- app_assoc.
Qed.

Lemma bt_of_list_sorted {A} (l : list (bytes * A)) : ssorted l -> bt_of_list l = l.
Proof. exact (bt_add_sorted l []). Qed.

Lemma bt_add_In {A} (l : list (bytes * A)) : forall m kv, In kv (bt_add l m) -> In kv l \/ In kv m.
Proof.
  induction l as [|[k v] l IH]; intros m kv H; [now right|].
  apply IH in H as [H|H]; [now left; right|]. apply bt_insert_In in H as [->|H]; [now left; left|now right].
Qed.

(* without repeated keys nothing is overwritten *)
Lemma bt_add_keeps {A} (l : list (bytes * A)) : forall m kv,
  NoDup (map fst l) -> In kv l \/ In kv m /\ ~ In (fst kv) (map fst l) -> In kv (bt_add l m).
Proof.
  induction l as [|[k v] l IH]; intros m [k0 v0] Hnd H; [now destruct H as [[]|[H _]]|].
  inversion Hnd as [|? ? Hk Hnd']; subst. apply IH; [exact Hnd'|]. cbn in H.
  destruct H as [[H|H]|[H Hn]]; [injection H as <- <-; right; split; [apply bt_insert_has|exact Hk]|now left|].
  right. split; [apply bt_insert_keeps; intuition|intuition].
Qed.

(* without repeated keys the tree has the same members *)
Lemma bt_of_list_In {A} (l : list (bytes * A)) kv : NoDup (map fst l) -> In kv (bt_of_list l) <-> In kv l.
Proof. intros Hnd. split; [now intros [H|[]]%bt_add_In|intros H; apply bt_add_keeps; auto]. Qed.

Lemma bt_add_perm {A} (l : list (bytes * A)) : NoDup (map fst l) -> Permutation l (bt_add l []).
Proof.
  intros Hnd. apply NoDup_Permutation.
  - now apply NoDup_map_inv in Hnd.
  - eapply NoDup_map_inv, ssorted_NoDup, bt_add_ssorted. exact I.
  - intros kv. symmetry. now apply bt_of_list_In.
Qed.

Lemma bt_add_keywise {A B} (R : A -> B -> Prop) l l' : Forall2 (keywise R) l l' ->
  forall m m', Forall2 (keywise R) m m' -> Forall2 (keywise R) (bt_add l m) (bt_add l' m').
Proof.
  induction 1 as [|[k a] [k' b] l l' [Hk Hr] _ IH]; intros m m' Hm; [exact Hm|].
  cbn in Hk. subst k'. apply IH. now apply bt_insert_keywise.
Qed.

Lemma assoc_bt_add {A} q (l : list (bytes * A)) : forall m,
  assoc_bytes q (bt_add l m)
  = fold_left (fun acc kv => if bytes_eqb q (fst kv) then Some (snd kv) else acc) l (assoc_bytes q m).
Proof. induction l as [|[k v] l IH]; intros m; [reflexivity|]. now rewrite bt_add_cons, IH, assoc_bt_insert. Qed.
