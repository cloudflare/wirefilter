(* Proofs for C16: the scheme builder (Sem/Registry.v) refines the abstract
   registry (Spec/C16.v) on every history; consistency of the items map with
   the vectors; exact lookup; the identifier lexer; scheme identity.

   Both sides are read the same way: an operation either finds its key held
   ([holder_kind] in a builder, [spec_kind] in a registry) and changes
   nothing, or appends one registration ([extends], [l ++ [r]]).  Everything
   about histories is proved by saying what appending one registration does. *)
From Coq Require Import List NArith Bool Arith Lia.
From WF Require Import Base.Bytes Lang.Types Sem.Registry Spec.C16 Proofs.ListFacts Proofs.ByteKeys.
Import ListNotations.
Local Open Scope N_scope.

Lemma reg_bytes_eqb_neq a b : a <> b -> bytes_eqb a b = false.
Proof. now destruct (bytes_eqb_spec a b). Qed.

Lemma key_eqb_spec a c : reflect (a = c) (key_eqb a c).
Proof.
  destruct a as [x|x], c as [y|y]; cbn [key_eqb]; try (right; discriminate);
    [destruct (bytes_eqb_spec x y)|destruct (ty_eqb_spec x y)]; constructor; congruence.
Qed.

Lemma find_app {A} (f : A -> bool) (a b : list A) :
  find f (a ++ b) = match find f a with Some x => Some x | None => find f b end.
Proof. induction a as [|x a IH]; [reflexivity|]. cbn. destruct (f x); [reflexivity|exact IH]. Qed.

Lemma combine_snoc {A B} (a : list A) : forall (c : list B) x y,
  length a = length c -> combine (a ++ [x]) (c ++ [y]) = combine a c ++ [(x, y)].
Proof.
  induction a as [|u a IH]; intros [|v c] x y H; try discriminate; [reflexivity|].
  cbn [app combine]. rewrite IH; [reflexivity|]. now injection H.
Qed.

Lemma numbered_snoc {A} (l : list A) x : numbered (l ++ [x]) = numbered l ++ [(length l, x)].
Proof.
  unfold numbered. rewrite app_length, seq_app. apply combine_snoc, seq_length.
Qed.

Lemma reg_fields_app l1 l2 : reg_fields (l1 ++ l2) = reg_fields l1 ++ reg_fields l2.
Proof. induction l1 as [|[] l1 IH]; cbn; congruence. Qed.
Lemma reg_functions_app l1 l2 : reg_functions (l1 ++ l2) = reg_functions l1 ++ reg_functions l2.
Proof. induction l1 as [|[] l1 IH]; cbn; congruence. Qed.
Lemma reg_lists_app l1 l2 : reg_lists (l1 ++ l2) = reg_lists l1 ++ reg_lists l2.
Proof. induction l1 as [|[] l1 IH]; cbn; congruence. Qed.

Lemma lookup_from_app l1 : forall nf nfn l2 n,
  lookup_from nf nfn (l1 ++ l2) n =
  match lookup_from nf nfn l1 n with
  | Some e => Some e
  | None => lookup_from (nf + length (reg_fields l1)) (nfn + length (reg_functions l1)) l2 n
  end.
Proof.
  induction l1 as [|[m t o|m|t k] l1 IH]; intros nf nfn l2 n;
    cbn [app lookup_from reg_fields reg_functions length].
  - now rewrite !Nat.add_0_r.
  - destruct (bytes_eqb n m); [reflexivity|]. now rewrite IH, Nat.add_succ_comm.
  - destruct (bytes_eqb n m); [reflexivity|]. now rewrite IH, (Nat.add_succ_comm nfn).
  - apply IH.
Qed.

Lemma holder_snoc l r n :
  holder (l ++ [r]) n =
  match holder l n with
  | Some e => Some e
  | None => lookup_from (length (reg_fields l)) (length (reg_functions l)) [r] n
  end.
Proof. unfold holder. now rewrite lookup_from_app. Qed.

Lemma spec_get_list_snoc l r t :
  spec_get_list (l ++ [r]) t =
  match spec_get_list l t with
  | Some p => Some p
  | None => match r with
            | RegList t' k => if ty_eqb t t' then Some (length (reg_lists l), (t', k)) else None
            | _ => None
            end
  end.
Proof.
  unfold spec_get_list, spec_lists. rewrite reg_lists_app.
  destruct r as [m t' o|m|t' k]; cbn [reg_lists]; [now rewrite app_nil_r; destruct (find _ _)..|].
  rewrite numbered_snoc, find_app. now destruct (find _ (numbered (reg_lists l))).
Qed.

Lemma holder_slot l n :
  match holder l n with
  | Some (EField i t o) => nth_error (reg_fields l) i = Some {| fd_name := n; fd_ty := t; fd_optional := o |}
  | Some (EFunction i) => nth_error (reg_functions l) i = Some n
  | None => True
  end.
Proof.
  induction l as [|r l IH] using rev_ind; [exact I|].
  rewrite holder_snoc, reg_fields_app, reg_functions_app.
  destruct (holder l n) as [[i t o|i]|]; [now apply nth_error_app_old..|].
  destruct r as [m t o|m|t k]; cbn [lookup_from]; try destruct (bytes_eqb_spec n m) as [->|_];
    try exact I; apply nth_error_app_new.
Qed.

Lemma spec_get_list_slot l t i d : spec_get_list l t = Some (i, d) -> nth_error (reg_lists l) i = Some d.
Proof.
  induction l as [|r l IH] using rev_ind; [discriminate|].
  rewrite spec_get_list_snoc, reg_lists_app. destruct (spec_get_list l t) as [p|].
  - intros [= ->]. now apply nth_error_app_old, IH.
  - destruct r as [m t' o|m|t' k]; try discriminate. destruct (ty_eqb t t'); [|discriminate].
    intros [= <- <-]. apply nth_error_app_new.
Qed.

Lemma has_list_spec l t :
  has_list l t = match spec_get_list l t with Some _ => true | None => false end.
Proof.
  induction l as [|r l IH] using rev_ind; [reflexivity|].
  unfold has_list in *. rewrite reg_lists_app, existsb_app, IH, spec_get_list_snoc.
  destruct (spec_get_list l t); [reflexivity|].
  destruct r as [m t' o|m|t' k]; cbn; [reflexivity..|]. now destruct (ty_eqb t t').
Qed.

(* who holds a key, as the kind an error reports *)
Definition spec_kind (l : registry) (k : key) : option redef :=
  match k with
  | KName n => match holder l n with
               | Some (EField _ _ _) => Some RedefField
               | Some (EFunction _) => Some RedefFunction
               | None => None
               end
  | KList t => if has_list l t then Some RedefList else None
  end.

Lemma spec_apply_by_kind l o :
  spec_apply l o =
  match spec_kind l (op_key o) with
  | Some e => (AddErr e, l)
  | None => (AddOk, l ++ [reg_of_op o])
  end.
Proof.
  destruct o as [n t|n t|n|t k]; cbn [spec_apply op_key spec_kind reg_of_op]; unfold spec_add_named;
    [destruct (holder l n) as [[i t' o'|i]|]..|destruct (has_list l t)]; reflexivity.
Qed.

Lemma spec_kind_snoc l o k :
  spec_kind (l ++ [reg_of_op o]) k =
  match spec_kind l k with
  | Some e => Some e
  | None => if key_eqb k (op_key o) then Some (op_redef o) else None
  end.
Proof.
  destruct k as [n|t]; cbn [spec_kind].
  - rewrite holder_snoc. destruct (holder l n) as [[i t o'|i]|]; [reflexivity..|].
    destruct o as [m t'|m t'|m|t' kd]; cbn [reg_of_op lookup_from op_key key_eqb op_redef];
      [destruct (bytes_eqb n m)..|]; reflexivity.
  - unfold has_list. rewrite reg_lists_app, existsb_app. destruct (existsb _ (reg_lists l)); [reflexivity|].
    destruct o as [m t'|m t'|m|t' kd]; cbn [reg_of_op reg_lists existsb op_key key_eqb op_redef fst orb];
      [reflexivity..|]. now destruct (ty_eqb t t').
Qed.

Definition holder_kind (b : builder) (k : key) : option redef :=
  match k with
  | KName n => match scheme_get b n with
               | Some (IField _) => Some RedefField
               | Some (IFunction _) => Some RedefFunction
               | None => None
               end
  | KList t => match get_list b t with Some _ => Some RedefList | None => None end
  end.

(* [b'] is [b] with the registration of [o] pushed, under the next free index of its kind *)
Record extends (b : builder) (o : reg_op) (b' : builder) : Prop := {
  ex_fields : b_fields b' = b_fields b ++ reg_fields [reg_of_op o];
  ex_functions : b_functions b' = b_functions b ++ reg_functions [reg_of_op o];
  ex_lists : b_lists b' = b_lists b ++ reg_lists [reg_of_op o];
  ex_items : b_items b' =
             match reg_of_op o with
             | RegField n _ _ => (n, IField (length (b_fields b))) :: b_items b
             | RegFunction n => (n, IFunction (length (b_functions b))) :: b_items b
             | RegList _ _ => b_items b
             end;
  ex_list_types : b_list_types b' =
                  match reg_of_op o with
                  | RegList t _ => (t, length (b_lists b)) :: b_list_types b
                  | _ => b_list_types b
                  end
}.

Lemma apply_op_cases b o :
  match holder_kind b (op_key o) with
  | Some e => apply_op b o = (AddErr e, b)
  | None => fst (apply_op b o) = AddOk /\ extends b o (snd (apply_op b o))
  end.
Proof.
  destruct o as [n t|n t|n|t k]; cbn [apply_op op_key holder_kind];
    unfold add_field, add_optional_field, add_field_full, add_function, add_list, scheme_get, get_list;
    [destruct (map_get bytes_eqb n (b_items b)) as [[i|i]|]..|destruct (map_get ty_eqb t (b_list_types b))];
    try reflexivity; (split; [reflexivity|]); constructor; cbn; now rewrite ?app_nil_r.
Qed.

Definition item_of_entry (e : entry) : item :=
  match e with EField i _ _ => IField i | EFunction i => IFunction i end.

Record refines (b : builder) (l : registry) : Prop := {
  rf_fields : b_fields b = reg_fields l;
  rf_functions : b_functions b = reg_functions l;
  rf_lists : b_lists b = reg_lists l;
  rf_items : forall n, map_get bytes_eqb n (b_items b) = option_map item_of_entry (holder l n);
  rf_list_types : forall t, map_get ty_eqb t (b_list_types b) = option_map fst (spec_get_list l t)
}.

Lemma refines_empty : refines empty_builder [].
Proof. constructor; reflexivity. Qed.

Lemma refines_kind b l k : refines b l -> holder_kind b k = spec_kind l k.
Proof.
  intros R. destruct k as [n|t]; cbn [holder_kind spec_kind]; unfold scheme_get, get_list.
  - rewrite (rf_items _ _ R). now destruct (holder l n) as [[i t o|i]|].
  - rewrite (rf_list_types _ _ R), has_list_spec. now destruct (spec_get_list l t).
Qed.

Lemma refines_extends b l o b' :
  refines b l -> extends b o b' -> spec_kind l (op_key o) = None -> refines b' (l ++ [reg_of_op o]).
Proof.
  intros [Hf Hfn Hl Hi Hlt] [Ef Efn El Ei Elt] Hfree. constructor.
  - rewrite Ef, Hf, reg_fields_app. reflexivity.
  - rewrite Efn, Hfn, reg_functions_app. reflexivity.
  - rewrite El, Hl, reg_lists_app. reflexivity.
  - intros n. rewrite Ei, holder_snoc, <- Hf, <- Hfn. clear - Hi Hfree.
    destruct o as [m t|m t|m|t k]; cbn [reg_of_op op_key spec_kind map_get lookup_from] in *.
    1-3: destruct (bytes_eqb_spec n m) as [->|_];
           [destruct (holder l m) as [[i t' o'|i]|]; [discriminate..|reflexivity]|].
    all: rewrite Hi; destruct (holder l n); reflexivity.
  - intros t. rewrite Elt, spec_get_list_snoc, <- Hl. clear - Hlt Hfree.
    destruct o as [m t'|m t'|m|t' k]; cbn [reg_of_op op_key spec_kind map_get] in *.
    4: destruct (ty_eqb_spec t t') as [->|_];
         [rewrite has_list_spec in Hfree; destruct (spec_get_list l t'); [discriminate|reflexivity]|].
    all: rewrite Hlt; destruct (spec_get_list l t); reflexivity.
Qed.

Lemma apply_op_refines b l o :
  refines b l ->
  fst (apply_op b o) = fst (spec_apply l o) /\ refines (snd (apply_op b o)) (snd (spec_apply l o)).
Proof.
  intros R. pose proof (apply_op_cases b o) as H.
  rewrite (refines_kind _ _ _ R) in H. rewrite spec_apply_by_kind.
  destruct (spec_kind l (op_key o)) eqn:Hk; [now rewrite H|].
  destruct H as [-> E]. split; [reflexivity|]. now apply (refines_extends b).
Qed.

Lemma run_ops_snoc ops o : run_ops (ops ++ [o]) = step (run_ops ops) o.
Proof. unfold run_ops. now rewrite fold_left_app. Qed.

Lemma spec_run_ops_snoc ops o : spec_run_ops (ops ++ [o]) = spec_step (spec_run_ops ops) o.
Proof. unfold spec_run_ops. now rewrite fold_left_app. Qed.

Lemma run_refines ops :
  fst (run_ops ops) = fst (spec_run_ops ops) /\ refines (snd (run_ops ops)) (snd (spec_run_ops ops)).
Proof.
  induction ops as [|o ops [Hr R]] using rev_ind; [split; [reflexivity|apply refines_empty]|].
  rewrite run_ops_snoc, spec_run_ops_snoc. unfold step, spec_step. cbn [fst snd].
  destruct (apply_op_refines _ _ o R) as [Hres R']. now rewrite Hr, Hres.
Qed.

Lemma numbered_all {A} (l : list A) : forall pre,
  option_map_all (fun i => option_map (pair i) (nth_error (pre ++ l) i)) (seq (length pre) (length l))
  = Some (combine (seq (length pre) (length l)) l).
Proof.
  induction l as [|x l IH]; intros pre; [reflexivity|].
  cbn [length seq option_map_all combine]. rewrite nth_error_app_new. cbn [option_map].
  specialize (IH (pre ++ [x])). rewrite <- app_assoc, app_length, Nat.add_1_r in IH. cbn [app] in IH.
  now rewrite IH.
Qed.

Section Queries.
  Variables (b : builder) (l : registry).
  Hypothesis R : refines b l.

  Lemma q_scheme_get n : scheme_get b n = option_map item_of_entry (holder l n).
  Proof. apply (rf_items _ _ R). Qed.

  Lemma q_get_field n : obs_get_field b n = Some (spec_get_field l n).
  Proof.
    unfold obs_get_field, get_field, spec_get_field, field_at. rewrite q_scheme_get, (rf_fields _ _ R).
    pose proof (holder_slot l n) as Hs.
    destruct (holder l n) as [[i t o|i]|]; cbn [option_map item_of_entry]; [now rewrite Hs|reflexivity..].
  Qed.

  Lemma q_get_function n : obs_get_function b n = Some (spec_get_function l n).
  Proof.
    unfold obs_get_function, get_function, spec_get_function, function_at.
    rewrite q_scheme_get, (rf_functions _ _ R). pose proof (holder_slot l n) as Hs.
    destruct (holder l n) as [[i t o|i]|]; cbn [option_map item_of_entry]; [reflexivity|now rewrite Hs|reflexivity].
  Qed.

  Lemma q_get_list t : obs_get_list b t = Some (spec_get_list l t).
  Proof.
    unfold obs_get_list, get_list, list_at. rewrite (rf_list_types _ _ R), (rf_lists _ _ R).
    destruct (spec_get_list l t) as [[i d]|] eqn:Hg; cbn [option_map fst]; [|reflexivity].
    now rewrite (spec_get_list_slot _ _ _ _ Hg).
  Qed.

  Lemma q_fields : obs_fields b = Some (spec_fields l).
  Proof. unfold obs_fields, fields, field_at. rewrite (rf_fields _ _ R). exact (numbered_all _ []). Qed.

  Lemma q_functions : obs_functions b = Some (spec_functions l).
  Proof. unfold obs_functions, functions, function_at. rewrite (rf_functions _ _ R). exact (numbered_all _ []). Qed.

  Lemma q_lists : obs_lists b = Some (spec_lists l).
  Proof. unfold obs_lists, lists, list_at. rewrite (rf_lists _ _ R). exact (numbered_all _ []). Qed.

  Lemma q_counts : obs_counts b = spec_counts l.
  Proof.
    unfold obs_counts, spec_counts, field_count, function_count, list_count.
    now rewrite (rf_fields _ _ R), (rf_functions _ _ R), (rf_lists _ _ R).
  Qed.
End Queries.

Lemma spec_kind_apply l o k :
  spec_kind (snd (spec_apply l o)) k =
  match spec_kind l k with
  | Some e => Some e
  | None => if key_eqb k (op_key o) then Some (op_redef o) else None
  end.
Proof.
  rewrite spec_apply_by_kind. destruct (spec_kind l (op_key o)) eqn:Ho; cbn [snd]; [|apply spec_kind_snoc].
  destruct (spec_kind l k) eqn:Hk; [reflexivity|]. destruct (key_eqb_spec k (op_key o)); congruence.
Qed.

Lemma spec_kind_history ops : forall k,
  spec_kind (snd (spec_run_ops ops)) k = option_map op_redef (find (fun p => key_eqb k (op_key p)) ops).
Proof.
  induction ops as [|o ops IH] using rev_ind; intros k; [now destruct k|].
  rewrite spec_run_ops_snoc. unfold spec_step. cbn [snd]. rewrite spec_kind_apply, IH, find_app.
  destruct (find _ ops); [reflexivity|]. cbn [find option_map]. now destruct (key_eqb k (op_key o)).
Qed.

Lemma first_claims_fold ops : forall seen st,
  (forall k, existsb (fun p => key_eqb k (op_key p)) seen =
             match spec_kind (snd st) k with Some _ => true | None => false end) ->
  snd (fold_left spec_step ops st) = snd st ++ map reg_of_op (first_claims seen ops).
Proof.
  induction ops as [|o ops IH]; intros seen st Hs; [cbn; now rewrite app_nil_r|].
  cbn [fold_left first_claims]. rewrite Hs. unfold spec_step at 2. rewrite spec_apply_by_kind.
  destruct (spec_kind (snd st) (op_key o)) eqn:Hk; cbn [fst snd]; [exact (IH seen (_, _) Hs)|].
  rewrite (IH (seen ++ [o])); cbn [snd map]; [now rewrite <- app_assoc|].
  intros k. rewrite existsb_app, spec_kind_snoc, Hs. cbn [existsb].
  destruct (spec_kind (snd st) k); [reflexivity|]. now destruct (key_eqb k (op_key o)).
Qed.

(* A map [m] from keys to indexes and a vector [v] of slots describe each
   other.  The builder's one map of items serves two vectors, fields and
   functions: [tag] picks out the indexes that are meant for [v], and a
   binding to anything else leaves [slots] as it is ([slots_other]). *)
Section Slots.
  Context {K V A : Type} (eqb : K -> K -> bool) (tag : nat -> V) (key : A -> K).
  Hypothesis eqb_spec : forall x y, reflect (x = y) (eqb x y).
  Hypothesis tag_inj : forall i j, tag i = tag j -> i = j.

  Definition slots (m : list (K * V)) (v : list A) : Prop :=
    forall k i, map_get eqb k m = Some (tag i) <-> exists a, nth_error v i = Some a /\ key a = k.

  Lemma slots_push m v a :
    slots m v -> map_get eqb (key a) m = None -> slots ((key a, tag (length v)) :: m) (v ++ [a]).
  Proof.
    intros S Hfree k i. cbn [map_get]. setoid_rewrite nth_error_snoc.
    destruct (eqb_spec k (key a)) as [->|Hk].
    - split.
      + intros [= ->%tag_inj]. eauto.
      + intros (a' & [H|[-> _]] & Ha'); [|reflexivity].
        assert (map_get eqb (key a) m = Some (tag i)) by (apply S; eauto). congruence.
    - rewrite (S k i). split; intros (a' & H & <-); [eauto|].
      destruct H as [H|[_ ->]]; [eauto|contradiction].
  Qed.

  Lemma slots_other m v k x :
    slots m v -> map_get eqb k m = None -> (forall i, x <> tag i) -> slots ((k, x) :: m) v.
  Proof.
    intros S Hfree Hx k' i. cbn [map_get]. destruct (eqb_spec k' k) as [->|_]; [|apply S].
    split; [intros [= E]; now destruct (Hx i)|]. intros H%S. congruence.
  Qed.
End Slots.

Definition indexed (b : builder) : Prop :=
  slots bytes_eqb IField fd_name (b_items b) (b_fields b) /\
  slots bytes_eqb IFunction (fun n => n) (b_items b) (b_functions b) /\
  slots ty_eqb (fun i => i) fst (b_list_types b) (b_lists b).

Lemma indexed_empty : indexed empty_builder.
Proof. repeat split; try discriminate; intros (a & H & _); now destruct i. Qed.

Lemma indexed_extends b o b' :
  indexed b -> extends b o b' -> holder_kind b (op_key o) = None -> indexed b'.
Proof.
  intros (Sf & Sfn & Sl) [Ef Efn El Ei Elt] Hfree. unfold indexed. rewrite Ef, Efn, El, Ei, Elt.
  destruct o as [n t|n t|n|t k];
    cbn [reg_of_op reg_fields reg_functions reg_lists op_key holder_kind] in *; rewrite ?app_nil_r;
    unfold scheme_get, get_list in Hfree.
  1-3: destruct (map_get bytes_eqb n (b_items b)) as [[i|i]|] eqn:Hn; try discriminate.
  4: destruct (map_get ty_eqb t (b_list_types b)) eqn:Hn; try discriminate.
  (* a field, optional or not: pushed on the fields, and no index of a function *)
  1-2: split; [apply (slots_push bytes_eqb IField fd_name bytes_eqb_spec) with (a := Build_field_def n t _);
                 [congruence|exact Sf|exact Hn]
              |split; [apply (slots_other bytes_eqb IFunction _ bytes_eqb_spec); [exact Sfn|exact Hn|discriminate]
                      |exact Sl]].
  - split; [|split; [|exact Sl]].
    + apply (slots_other bytes_eqb IField _ bytes_eqb_spec); [exact Sf|exact Hn|discriminate].
    + apply (slots_push bytes_eqb IFunction (fun n => n) bytes_eqb_spec); [congruence|exact Sfn|exact Hn].
  - split; [exact Sf|split; [exact Sfn|]].
    apply (slots_push ty_eqb (fun i => i) fst ty_eqb_spec) with (a := (t, k)); [auto|exact Sl|exact Hn].
Qed.

Lemma run_ops_indexed ops : indexed (snd (run_ops ops)).
Proof.
  induction ops as [|o ops IH] using rev_ind; [apply indexed_empty|].
  rewrite run_ops_snoc. unfold step. cbn [snd]. pose proof (apply_op_cases (snd (run_ops ops)) o) as H.
  destruct (holder_kind _ (op_key o)) eqn:Hk; [now rewrite H|]. exact (indexed_extends _ _ _ IH (proj2 H) Hk).
Qed.

Record consistent (b : builder) : Prop := {
  c_field_slot : forall n i, scheme_get b n = Some (IField i) ->
                 exists f, field_at b i = Some f /\ fd_name f = n;
  c_function_slot : forall n i, scheme_get b n = Some (IFunction i) -> function_at b i = Some n;
  c_slot_field : forall i f, field_at b i = Some f -> scheme_get b (fd_name f) = Some (IField i);
  c_slot_function : forall i n, function_at b i = Some n -> scheme_get b n = Some (IFunction i);
  c_list_slot : forall t i, get_list b t = Some i -> exists k, list_at b i = Some (t, k);
  c_slot_list : forall i t k, list_at b i = Some (t, k) -> get_list b t = Some i
}.

Lemma indexed_consistent b : indexed b -> consistent b.
Proof.
  intros (Sf & Sfn & Sl). constructor; unfold scheme_get, get_list, field_at, function_at, list_at.
  - intros n i H. now apply Sf.
  - intros n i (a & H & <-)%Sfn. exact H.
  - intros i f H. apply Sf. eauto.
  - intros i n H. apply Sfn. eauto.
  - intros t i ([t' k] & H & <-)%Sl. now exists k.
  - intros i t k H. apply Sl. now exists (t, k).
Qed.

Lemma run_ops_consistent ops : consistent (snd (run_ops ops)).
Proof. apply indexed_consistent, run_ops_indexed. Qed.

Lemma consistent_unique_names b : consistent b ->
  (forall i j f g, field_at b i = Some f -> field_at b j = Some g -> fd_name f = fd_name g -> i = j) /\
  (forall i j n, function_at b i = Some n -> function_at b j = Some n -> i = j) /\
  (forall i j f, field_at b i = Some f -> function_at b j = Some (fd_name f) -> False) /\
  (forall i j t k k', list_at b i = Some (t, k) -> list_at b j = Some (t, k') -> i = j).
Proof.
  intros [_ _ C3 C4 _ C6]. repeat split.
  - intros i j f g Hf%C3 Hg%C3 E. congruence.
  - intros i j n Hi%C4 Hj%C4. congruence.
  - intros i j f Hf%C3 Hn%C4. congruence.
  - intros i j t k k' Hi%C6 Hj%C6. congruence.
Qed.

Lemma consistent_get_field b n i :
  consistent b -> get_field b n = Some i -> exists f, field_at b i = Some f /\ fd_name f = n.
Proof.
  intros C H. apply (c_field_slot _ C). unfold get_field in H.
  now destruct (scheme_get b n) as [[j|j]|]; inversion H.
Qed.

Lemma consistent_get_function b n i :
  consistent b -> get_function b n = Some i -> function_at b i = Some n.
Proof.
  intros C H. apply (c_function_slot _ C). unfold get_function in H.
  now destruct (scheme_get b n) as [[j|j]|]; inversion H.
Qed.

Lemma span_while_spec f l :
  l = fst (span_while f l) ++ snd (span_while f l) /\
  forallb f (fst (span_while f l)) = true /\
  match snd (span_while f l) with [] => True | c :: _ => f c = false end.
Proof.
  induction l as [|c l (H1 & H2 & H3)]; [cbn; auto|].
  cbn [span_while]. destruct (f c) eqn:E; cbn [fst snd app forallb]; [|auto].
  rewrite E, <- H1. auto.
Qed.

Lemma name_run_span l : name_run l = span_while is_name_byte l.
Proof. induction l as [|c l IH]; [reflexivity|]. cbn [name_run span_while]. now rewrite IH. Qed.

Lemma name_run_app_ident seg rest :
  forallb is_ident_char seg = true ->
  name_run (seg ++ rest) = (seg ++ fst (name_run rest), snd (name_run rest)).
Proof.
  induction seg as [|c seg IH]; [cbn; now destruct (name_run rest)|].
  cbn [forallb app name_run]. intros [Hc Hs]%andb_true_iff. unfold is_name_byte. now rewrite Hc, (IH Hs).
Qed.

Lemma segments_ok_ident seg : forall cur run,
  seg <> [] -> forallb is_ident_char seg = true ->
  segments_ok cur (seg ++ run) = segments_ok true run.
Proof.
  induction seg as [|c seg IH]; intros cur run Hne H; [contradiction|].
  cbn [forallb] in H. apply andb_true_iff in H as [Hc Hs]. cbn [app segments_ok].
  destruct (N.eqb_spec c 46) as [->|_]; [discriminate Hc|].
  destruct seg as [|d seg']; [reflexivity|]. now apply IH.
Qed.

Definition spec_lex_result (acc input : bytes) : lex_result bytes :=
  if segments_ok false (fst (name_run input))
  then LexOk (acc ++ fst (name_run input)) (snd (name_run input))
  else LexErr ExpectedName.

Lemma ident_loop_spec fuel : forall acc input,
  (length input < fuel)%nat -> ident_loop fuel acc input = spec_lex_result acc input.
Proof.
  induction fuel as [|fuel IH]; intros acc input Hlen; [lia|].
  cbn [ident_loop]. unfold take_while, spec_lex_result.
  destruct (span_while_spec is_ident_char input) as (Hsplit & Hall & Hstop).
  destruct (span_while is_ident_char input) as [seg rest] eqn:Esp. cbn [fst snd] in *.
  destruct seg as [|c seg].
  - (* no identifier character at the start *)
    cbn [app] in Hsplit. subst rest.
    destruct input as [|d input']; [reflexivity|].
    cbn [name_run]. unfold is_name_byte. rewrite Hstop. cbn [orb].
    destruct (d =? 46) eqn:Ed; cbn [fst segments_ok]; [now rewrite Ed|reflexivity].
  - assert (Hne : c :: seg <> []) by discriminate.
    rewrite Hsplit, (name_run_app_ident _ rest Hall). cbn [fst snd].
    rewrite (segments_ok_ident _ false _ Hne Hall).
    assert (Hrl : (length rest < length input)%nat) by (rewrite Hsplit, app_length; cbn [length]; lia).
    destruct rest as [|d rest'].
    + cbn [starts_with name_run fst snd segments_ok]. now rewrite app_nil_r.
    + cbn [starts_with]. destruct (N.eqb_spec 46 d) as [<-|Ed].
      * (* a dot: the loop goes round, the run goes on *)
        cbn [name_run]. change (is_name_byte 46) with true. cbn iota.
        cbn [fst snd segments_ok]. change (46 =? 46) with true. cbn iota. cbn [andb].
        rewrite IH by (cbn [length] in Hrl; lia). unfold spec_lex_result.
        destruct (segments_ok false (fst (name_run rest'))); [|reflexivity].
        now rewrite <- !app_assoc.
      * cbn [name_run]. unfold is_name_byte. rewrite Hstop.
        replace (d =? 46) with false by (symmetry; apply N.eqb_neq; congruence).
        cbn [orb fst snd segments_ok]. now rewrite app_nil_r.
Qed.

Lemma lex_ident_spec input :
  lex_ident input =
  match spec_lex_ident input with
  | Some (name, rest) => LexOk name rest
  | None => LexErr ExpectedName
  end.
Proof.
  unfold lex_ident. rewrite ident_loop_spec by (cbn; lia). unfold spec_lex_result, spec_lex_ident.
  destruct (name_run input) as [run rest]. cbn [fst snd app]. now destruct (segments_ok false run).
Qed.

Lemma lex_ident_never_out_of_fuel input : lex_ident input <> LexErr OutOfFuel.
Proof.
  rewrite lex_ident_spec. destruct (spec_lex_ident input) as [[n r]|]; discriminate.
Qed.

Lemma lex_identifier_resolve b l text :
  refines b l ->
  lex_identifier_expr b text =
  match resolve l text with
  | (Malformed, _) => LexErr ExpectedName
  | (Unknown, _) => LexErr UnknownIdentifier
  | (ToField i t, rest) => LexOk (PField i, t) rest
  | (ToFunction i, rest) =>
      match starts_with [40] (skip_space rest) with
      | None => LexErr ExpectedLiteral
      | Some r =>
          match skip_space r with
          | [] => LexErr ExpectedLiteral
          | c :: r' => if c =? 41 then LexOk (PCall i, TBool) r' else LexErr Unmodelled
          end
      end
  end.
Proof.
  intros R. unfold lex_identifier_expr, lex_identifier, resolve, field_at. rewrite lex_ident_spec.
  destruct (spec_lex_ident text) as [[name rest]|]; [|reflexivity].
  rewrite (q_scheme_get b l R), (rf_fields _ _ R). pose proof (holder_slot l name) as Hs.
  destruct (holder l name) as [[i t o|i]|]; cbn [option_map item_of_entry]; [now rewrite Hs|reflexivity..].
Qed.

Lemma call_suffix_cases rest :
  (rest = [] /\ is_call_suffix rest = Some false) \/
  (rest = [40; 41] /\ is_call_suffix rest = Some true) \/
  is_call_suffix rest = None.
Proof.
  unfold is_call_suffix. destruct rest as [|c r]; [now left|]. right.
  change (bytes_eqb (c :: r) []) with false. cbv iota.
  destruct (bytes_eqb_spec (c :: r) [40; 41]) as [->|_]; [now left|now right].
Qed.

Lemma probe_value_spec b l text :
  refines b l -> spec_probe_value l text <> PErr Unmodelled ->
  probe_value b text = spec_probe_value l text.
Proof.
  intros R. unfold probe_value, lex_index_expr, spec_probe_value. rewrite (lex_identifier_resolve b l text R).
  destruct (resolve l text) as [[| |i t|i] rest]; try reflexivity;
    destruct (call_suffix_cases rest) as [[-> ->]|[[-> ->]| ->]]; try reflexivity; intros H; now contradiction H.
Qed.

Lemma bool_container_next t :
  bool_container t = match ty_next t with Some TBool => true | _ => false end.
Proof. destruct t as [| | | |t1|t1]; try reflexivity; destruct t1; reflexivity. Qed.

Lemma bool_container_not_bool t : bool_container t = true -> ty_eqb t TBool = false.
Proof. destruct t; try discriminate; reflexivity. Qed.

Lemma probe_filter_spec b l text :
  refines b l -> spec_probe_filter l text <> PErr Unmodelled ->
  probe_filter b text = spec_probe_filter l text.
Proof.
  intros R. unfold probe_filter, spec_probe_filter.
  destruct (begins [40] text || begins [33] text || begins [110; 111; 116] text
            || begins [97; 110; 121] text || begins [97; 108; 108] text); [reflexivity|].
  unfold lex_index_expr. rewrite (lex_identifier_resolve b l text R).
  destruct (resolve l text) as [[| |i t|i] rest]; try reflexivity;
    destruct (call_suffix_cases rest) as [[-> ->]|[[-> ->]| ->]]; try (intros H; now contradiction H);
    intros _; try reflexivity.
  (* a field, bare or called: the two orders of the type tests agree *)
  all: cbn; rewrite <- bool_container_next; destruct (bool_container t) eqn:Eb;
    [now rewrite (bool_container_not_bool _ Eb)|rewrite orb_false_r; now destruct (ty_eqb t TBool)].
Qed.

Lemma nth_error_combine_in {A B} (a : list A) : forall (c : list B) i x y,
  nth_error a i = Some x -> nth_error c i = Some y -> In (x, y) (combine a c).
Proof.
  induction a as [|u a IH]; intros [|v c] [|i] x y Ha Hc; try discriminate.
  - injection Ha as ->. injection Hc as ->. now left.
  - right. now apply (IH c i).
Qed.

(* The schemes of a world beside their origins: two allocation numbers are
   equal exactly when the origins are, and both stay below their counters
   (so that a new build is new on both sides). *)
Record world_rel (st : list scheme * nat) (ost : list nat * nat) : Prop := {
  w_len : length (fst st) = length (fst ost);
  w_same : forall p q, In p (combine (fst st) (fst ost)) -> In q (combine (fst st) (fst ost)) ->
           (s_id (fst p) = s_id (fst q) <-> snd p = snd q);
  w_bound : forall p, In p (combine (fst st) (fst ost)) -> (s_id (fst p) < snd st /\ snd p < snd ost)%nat
}.

Lemma world_snoc st ost s x next pos :
  world_rel st ost -> (snd st <= next)%nat -> (snd ost <= pos)%nat ->
  (forall q, In q (combine (fst st) (fst ost)) -> (s_id s = s_id (fst q) <-> x = snd q)) ->
  (s_id s < next /\ x < pos)%nat ->
  world_rel (fst st ++ [s], next) (fst ost ++ [x], pos).
Proof.
  intros [Hlen Hsame Hbound] Hn Hp Hnew Hb.
  constructor; cbn [fst snd]; rewrite ?(combine_snoc _ _ _ _ Hlen).
  - now rewrite !app_length, Hlen.
  - intros p q [Hp'|[<-|[]]]%in_app_iff [Hq|[<-|[]]]%in_app_iff; cbn [fst snd];
      [now apply Hsame| |now apply Hnew|easy].
    split; intros E; symmetry; now apply Hnew.
  - intros p [Hp'%Hbound|[<-|[]]]%in_app_iff; [lia|exact Hb].
Qed.

Lemma world_step st ost o :
  world_rel st ost -> world_rel (scheme_step st o) (origin_step ost o).
Proof.
  intros W. pose proof W as [Hlen Hsame Hbound]. destruct o as [ops|k]; cbn [scheme_step origin_step build]; unfold scheme_clone.
  - (* a build is new on both sides *)
    apply world_snoc; cbn [s_id]; try lia; [exact W|]. intros q Hq%Hbound. lia.
  - destruct (nth_error (fst st) k) as [s|] eqn:Es, (nth_error (fst ost) k) as [x|] eqn:Ex.
    + (* a clone is the pair it was cloned from *)
      pose proof (nth_error_combine_in _ _ _ _ _ Es Ex) as Hin.
      apply world_snoc; try lia; [exact W|intros q Hq; exact (Hsame (s, x) q Hin Hq)|].
      apply Hbound in Hin. cbn [fst snd] in Hin. lia.
    + apply nth_error_None in Ex. assert (k < length (fst st))%nat by (apply nth_error_Some; congruence). lia.
    + apply nth_error_None in Es. assert (k < length (fst ost))%nat by (apply nth_error_Some; congruence). lia.
    + constructor; cbn [fst snd]; [exact Hlen|exact Hsame|]. intros p Hp%Hbound. lia.
Qed.

Lemma world_run ops :
  world_rel (fold_left scheme_step ops ([], O)) (fold_left origin_step ops ([], O)).
Proof.
  assert (W : world_rel ([], O) ([], O)) by (constructor; cbn; [reflexivity|intros p q []|intros p []]).
  revert W. generalize ([] : list scheme, O) ([] : list nat, O).
  induction ops as [|o ops IH]; intros st ost W; [exact W|]. apply IH. now apply world_step.
Qed.

Lemma scheme_ids_origins ops i j si sj oi oj :
  nth_error (run_scheme_ops ops) i = Some si -> nth_error (run_scheme_ops ops) j = Some sj ->
  nth_error (scheme_origins ops) i = Some oi -> nth_error (scheme_origins ops) j = Some oj ->
  s_id si = s_id sj <-> oi = oj.
Proof.
  intros Hi Hj Hoi Hoj.
  exact (w_same _ _ (world_run ops) (si, oi) (sj, oj) (nth_error_combine_in _ _ _ _ _ Hi Hoi)
           (nth_error_combine_in _ _ _ _ _ Hj Hoj)).
Qed.
