(* C06: IP address literals, CIDR blocks, explicit ranges. *)
From Coq Require Import List ZArith Bool Lia.
From WF Require Import Base.Bytes Sem.RangeSet Parse.Lex Spec.C06 Proofs.ListFacts Proofs.LexBase
     Proofs.LexIntProofs.
Import ListNotations.
Local Open Scope Z_scope.

Definition word (c : N) (w : bytes) : Prop := w <> [] /\ Forall (fun b => b <> c) w.

Fixpoint join (c : N) (ws : list bytes) : bytes :=
  match ws with
  | [] => []
  | [w] => w
  | w :: ws' => w ++ c :: join c ws'
  end.

Lemma join_cons : forall c w ws, ws <> [] -> join c (w :: ws) = w ++ c :: join c ws.
Proof. intros c w [|w' ws] H; [contradiction|reflexivity]. Qed.

Lemma join_app : forall c ws1 ws2, ws1 <> [] -> ws2 <> [] ->
  join c (ws1 ++ ws2) = join c ws1 ++ c :: join c ws2.
Proof.
  intros c ws1 ws2 H1 H2. induction ws1 as [|w [|w' ws1] IH]; [contradiction| |].
  - now apply join_cons.
  - change (join c (w :: (w' :: ws1) ++ ws2) = (w ++ c :: join c (w' :: ws1)) ++ c :: join c ws2).
    now rewrite join_cons, IH, <- app_assoc by discriminate.
Qed.

Lemma join_forall : forall (P : N -> Prop) c ws, P c -> Forall (Forall P) ws -> Forall P (join c ws).
Proof.
  intros P c ws Hc H. induction H as [|w [|w' ws] Hw _ IH]; [constructor|exact Hw|].
  rewrite join_cons by discriminate. apply Forall_app. split; [assumption|now constructor].
Qed.

Lemma join_head : forall c w ws, word c w -> exists x t, join c (w :: ws) = x :: t /\ x <> c.
Proof.
  intros c [|x w] ws [Hne Hw]; [contradiction|]. inversion Hw; subst.
  destruct ws; [now exists x, w|]. rewrite join_cons by discriminate. now eexists x, _.
Qed.

Lemma words_free : forall c ws, Forall (word c) ws -> Forall (Forall (fun b => b <> c)) ws.
Proof. intros c ws H. eapply Forall_impl; [|exact H]. now intros w [_ Hw]. Qed.

Lemma split_on_free : forall c w s cur, Forall (fun b => b <> c) w -> split_on c (w ++ s) cur = split_on c s (rev w ++ cur).
Proof.
  intros c w s. induction w as [|b w IH]; intros cur H; [reflexivity|]. inversion H; subst.
  cbn [app split_on rev]. rewrite (proj2 (N.eqb_neq b c)), IH, <- app_assoc by assumption. reflexivity.
Qed.

Lemma split_on_join : forall c ws, ws <> [] -> Forall (Forall (fun b => b <> c)) ws -> split_on c (join c ws) [] = ws.
Proof.
  intros c ws Hne H. induction H as [|w [|w' ws] Hw _ IH]; [contradiction| |].
  - cbn [join]. rewrite <- (app_nil_r w) at 1. rewrite split_on_free, app_nil_r by assumption. cbn [split_on]. now rewrite rev_involutive.
  - rewrite join_cons, split_on_free, app_nil_r by (assumption || discriminate). cbn [split_on].
    rewrite N.eqb_refl, rev_involutive, IH by discriminate. reflexivity.
Qed.

Lemma last_app_ne : forall (a b : bytes) d, b <> [] -> last (a ++ b) d = last b d.
Proof.
  intros a b d Hb. induction a as [|x a IH]; [reflexivity|]. cbn [app].
  destruct (a ++ b) eqn:E; [apply app_eq_nil in E as [_ ->]; contradiction|]. exact IH.
Qed.

Lemma last_free : forall c (w : bytes), word c w -> last w 0%N <> c.
Proof.
  intros c w [Hne H]. induction H as [|b [|b' w] Hb _ IH]; [contradiction|exact Hb|]. apply IH. discriminate.
Qed.

Lemma last_join : forall c ws, ws <> [] -> Forall (word c) ws -> last (join c ws) 0%N <> c.
Proof.
  intros c ws Hne H. induction H as [|w [|w' ws] Hw Hws IH]; [contradiction|now apply last_free|].
  rewrite join_cons, last_app_ne by discriminate. inversion Hws as [|? ? Hw' _]; subst.
  destruct (join_head c w' ws Hw') as (x & t & E & _). rewrite E in *. apply IH. discriminate.
Qed.

(* find_sub ".." and find_dcolon look for the first doubled separator.  A text in which separators are
   isolated and which does not end with one is passed over: the search goes on behind it. *)
Section Isolated.
  Variable find : bytes -> nat -> option nat.
  Variable c : N.
  Hypothesis find_other : forall b r i, b <> c -> find (b :: r) i = find r (S i).
  Hypothesis find_single : forall x r i, x <> c -> find (c :: x :: r) i = find (x :: r) (S i).

  Definition isolated (t : bytes) : Prop := forall s i, find (t ++ s) i = find s (i + length t)%nat.

  Lemma isolated_app : forall t1 t2, isolated t1 -> isolated t2 -> isolated (t1 ++ t2).
  Proof. intros t1 t2 H1 H2 s i. rewrite <- app_assoc, H1, H2, app_length. f_equal. lia. Qed.

  Lemma isolated_free : forall w, Forall (fun b => b <> c) w -> isolated w.
  Proof.
    intros w H s. induction H as [|b w Hb _ IH]; intros i; cbn [app length]; [now rewrite Nat.add_0_r|].
    rewrite find_other, IH by assumption. f_equal. lia.
  Qed.

  Lemma isolated_join : forall ws, Forall (word c) ws -> isolated (join c ws).
  Proof.
    intros ws H. induction H as [|w [|w' ws] [Hne Hw] Hws IH]; [intros s i; now rewrite Nat.add_0_r|now apply isolated_free|].
    rewrite join_cons by discriminate. apply isolated_app; [now apply isolated_free|].
    inversion Hws as [|? ? Hw' _]; subst. destruct (join_head c w' ws Hw') as (x & t & E & Hx).
    rewrite E in *. intros s i. cbn [app length]. rewrite find_single, (IH s) by assumption. cbn [length]. f_equal. lia.
  Qed.
End Isolated.

Lemma find_sub_other : forall c p b r i, b <> c -> find_sub (c :: p) (b :: r) i = find_sub (c :: p) r (S i).
Proof. intros c p b r i H. cbn [find_sub]. now rewrite starts_with_cons, (proj2 (N.eqb_neq c b)) by congruence. Qed.

Lemma find_sub_free : forall c p w, Forall (fun b => b <> c) w -> isolated (find_sub (c :: p)) w.
Proof. intros c p. exact (isolated_free _ c (find_sub_other c p)). Qed.

Lemma find_sub_unfold : forall p s i,
  find_sub p s i = match starts_with p s with
                   | Some _ => Some i
                   | None => match s with [] => None | _ :: r => find_sub p r (S i) end
                   end.
Proof. intros p [|] i; reflexivity. Qed.

Lemma find_sub_single : forall c x r i, x <> c -> find_sub [c; c] (c :: x :: r) i = find_sub [c; c] (x :: r) (S i).
Proof.
  intros c x r i H. now rewrite find_sub_unfold, !starts_with_cons, N.eqb_refl, (proj2 (N.eqb_neq c x)) by congruence.
Qed.

Local Notation DD := [46%N; 46%N].

Lemma fdc_other : forall b r i, b <> 58%N -> find_dcolon (b :: r) i = find_dcolon r (S i).
Proof. intros b r i H. cbn [find_dcolon]. by_bits_default b. Qed.
Lemma fdc_single : forall x r i, x <> 58%N -> find_dcolon (58%N :: x :: r) i = find_dcolon (x :: r) (S i).
Proof.
  intros x r i H.
  change (find_dcolon (58%N :: x :: r) i) with (match x with 58%N => Some i | _ => find_dcolon (x :: r) (S i) end).
  by_bits_default x.
Qed.

Lemma find_dd_past : forall t j, find_sub DD t j = None -> last t 0%N <> 46%N -> isolated (find_sub DD) t.
Proof.
  induction t as [|b t IH]; intros j Hn Hl s i; cbn [app length]; [now rewrite Nat.add_0_r|].
  rewrite find_sub_unfold in Hn. destruct (starts_with DD (b :: t)) eqn:Es; [discriminate|].
  rewrite find_sub_unfold. replace (starts_with DD (b :: t ++ s)) with (@None bytes).
  - rewrite (IH (S j)); [f_equal; lia|assumption|]. destruct t; [discriminate|exact Hl].
  - rewrite starts_with_cons in *. destruct (N.eqb_spec 46 b) as [<-|]; [|reflexivity].
    destruct t as [|x t]; [now elim Hl|]. cbn [app]. rewrite starts_with_cons in *.
    destruct (46 =? x)%N; [now rewrite starts_with_nil in Es|reflexivity].
Qed.

Lemma isolated_nodd : forall t, isolated (find_sub DD) t -> find_sub DD t 0 = None.
Proof. intros t H. now rewrite <- (app_nil_r t), H. Qed.

Definition ipc (b : N) : bool := is_ascii b && is_ip_char b.
Record ip_text (t : bytes) : Prop := {
  it_ne : t <> [];
  it_chars : Forall (fun b => ipc b = true) t;
  it_nodd : find_sub DD t 0 = None;
  it_noslash : Forall (fun b => b <> 47%N) t;
  it_last : last t 0%N <> 46%N }.

Lemma ip_follow_stops : forall rest, ip_follow_ok rest -> stops is_ip_char rest.
Proof. exact (next_not_stops is_ip_char). Qed.

Lemma match_chunk : forall t rest, t <> [] -> Forall (fun b => ipc b = true) t -> ip_follow_ok rest ->
  match_addr_or_cidr (t ++ rest) = LOk t rest.
Proof. intros t rest Hne Hc Hr. apply take_while_app; [assumption|exact Hc|now apply ip_follow_stops]. Qed.

Theorem lex_ip_text : forall t a rest, ip_text t -> parse_addr t = Some a -> ip_follow_ok rest ->
  lex_ip (t ++ rest) = LOk a rest.
Proof.
  intros t a rest Ht Hp Hr. unfold lex_ip. rewrite match_chunk by (apply Ht || assumption).
  cbn [lbind]. now rewrite Hp.
Qed.

Definition hexword (w : bytes) : Prop := w <> [] /\ Forall (fun b => is_ascii b && is_hexdigit b = true) w.

Lemma hexword_print : forall radix u v, 2 <= radix <= 16 -> 0 <= v -> hexword (print_radix radix v u).
Proof.
  intros radix u v Hr Hv. split; [now destruct (print_radix_spec radix u v Hr Hv)|].
  apply print_radix_forall; [assumption..|]. intros d Hd. apply digit_char_text. lia.
Qed.

Lemma print_dec_nonneg : forall n, 0 <= n -> print_dec n = print_radix 10 n false.
Proof. intros n H. unfold print_dec. now rewrite (proj2 (Z.ltb_ge n 0)). Qed.

Lemma hexword_dec : forall n, 0 <= n -> hexword (print_dec n).
Proof. intros n H. rewrite print_dec_nonneg by assumption. apply hexword_print; lia. Qed.

Lemma hexword_word : forall c w, is_hexdigit c = false -> hexword w -> word c w.
Proof.
  intros c w Hc [Hne H]. split; [assumption|]. eapply Forall_impl; [|exact H]. intros b Hb ->.
  now rewrite Hc, andb_false_r in Hb.
Qed.

Lemma hexwords_words : forall c ws, is_hexdigit c = false -> Forall hexword ws -> Forall (word c) ws.
Proof. intros c ws Hc H. eapply Forall_impl; [|exact H]. intros w. now apply hexword_word. Qed.

Lemma hexword_ipc : forall w, hexword w -> Forall (fun b => ipc b = true) w.
Proof.
  intros w [_ H]. eapply Forall_impl; [|exact H]. intros b Hb. unfold ipc, is_ip_char.
  apply andb_prop in Hb as [-> ->]. reflexivity.
Qed.

Lemma print_dec_digits : forall n, 0 <= n -> forallb Lex.is_digit (print_dec n) = true.
Proof.
  intros n H. rewrite print_dec_nonneg by assumption.
  apply forallb_forall, Forall_forall, print_radix_forall; [lia..|]. intros d Hd. now apply digit_char_dec.
Qed.

Lemma prefix_len_print : forall n, 0 <= n < 256 -> parse_prefix_len (print_dec n) = Some n.
Proof.
  intros n H. unfold parse_prefix_len. rewrite print_dec_digits by lia. destruct (hexword_dec n) as [Hne _]; [lia|].
  rewrite print_dec_nonneg in * by lia. rewrite digits_value by lia.
  replace (n <? 256) with true by lia. now destruct (print_radix 10 n false).
Qed.

Lemma dec_octet_single : forall c, dec_octet [c] = if Lex.is_digit c then Some (Z.of_N (c - 48)) else None.
Proof. intros c. unfold dec_octet. by_bits c. Qed.

Lemma dec_octet_multi : forall c c2 t,
  dec_octet (c :: c2 :: t) =
  if (c =? 48)%N then None
  else if (Nat.leb (length (c :: c2 :: t)) 3) && forallb Lex.is_digit (c :: c2 :: t) then
         match digits_val 10 (c :: c2 :: t) 0 with
         | Some v => if v <? 256 then Some v else None
         | None => None
         end
       else None.
Proof. intros c c2 t. unfold dec_octet. by_bits c. Qed.

Lemma dec_octet_print : forall o, octet o -> dec_octet (print_dec o) = Some o.
Proof.
  intros o H. pose proof (print_dec_digits o ltac:(apply H)) as Hd.
  rewrite print_dec_nonneg in * by apply H.
  pose proof (digits_value 10 false o ltac:(lia) ltac:(apply H)) as Hv.
  pose proof (print_radix_length 10 false 3 o ltac:(lia) ltac:(unfold octet in H; lia) ltac:(lia)) as Hl.
  destruct (print_radix_spec 10 false o) as (_ & _ & _ & Hhd & H0); [lia|apply H|].
  destruct (Z.eq_dec o 0) as [->|Hnz]; [now rewrite (H0 eq_refl)|].
  destruct (Hhd ltac:(unfold octet in H; lia)) as (d & t & E & Hd0). rewrite E in *. clear Hhd H0 E.
  destruct (digit_char_dec false d ltac:(lia)) as [Hdig Ed].
  destruct t as [|c2 t].
  - cbn [digits_val] in Hv. rewrite digit_char_val, (proj2 (Z.ltb_lt d 10)) in Hv by lia. injection Hv as <-.
    rewrite dec_octet_single, Hdig. f_equal. lia.
  - rewrite dec_octet_multi, Hd, Hv, (proj2 (Nat.leb_le _ _)), (proj2 (N.eqb_neq _ _)) by (assumption || lia).
    now replace (o <? 256) with true by (unfold octet in H; lia).
Qed.

Lemma dec_octet_colon : forall s, In 58%N s -> dec_octet s = None.
Proof.
  intros [|c [|c2 t]] H; [destruct H|now destruct H as [->|[]]|]. rewrite dec_octet_multi.
  destruct (c =? 48)%N; [reflexivity|]. replace (forallb _ _) with false; [now rewrite andb_false_r|].
  symmetry. apply not_true_is_false. intros Hall. rewrite forallb_forall in Hall. now apply Hall in H.
Qed.

Lemma hex_group_print : forall u g, group16 g -> hex_group (print_radix 16 g u) = Some g.
Proof.
  intros u g H. destruct (hexword_print 16 u g) as [Hne Hx]; [lia|apply H|].
  pose proof (print_radix_length 16 u 4 g ltac:(lia) H ltac:(lia)) as Hlen.
  assert (Hf : forallb is_hexdigit (print_radix 16 g u) = true).
  { apply forallb_forall, Forall_forall. eapply Forall_impl; [|exact Hx]. intros c Hc. now apply andb_prop in Hc. }
  unfold hex_group. rewrite digits_value, (proj2 (Nat.leb_le _ _)), Hf by (lia || apply H).
  now destruct (print_radix 16 g u).
Qed.

Lemma rfind_none : forall c s i acc, Forall (fun b => b <> c) s -> rfind_byte c s i acc = acc.
Proof.
  intros c s i acc H. revert i. induction H as [|b s Hb _ IH]; intros i; cbn [rfind_byte]; [reflexivity|].
  now rewrite (proj2 (N.eqb_neq b c)), IH.
Qed.
Lemma rfind_app : forall c a b i acc,
  rfind_byte c (a ++ b) i acc = rfind_byte c b (i + length a)%nat (rfind_byte c a i acc).
Proof.
  intros c a. induction a as [|x a IH]; intros b i acc; cbn [app rfind_byte length]; [now rewrite Nat.add_0_r|].
  rewrite IH. f_equal. lia.
Qed.

Lemma skipn_prefix : forall (p s : bytes) k, skipn (length p + k) (p ++ s) = skipn k s.
Proof. intros p s k. rewrite skipn_app, skipn_all2, Nat.add_comm, Nat.add_sub by lia. reflexivity. Qed.

Definition cidr_result (a : ip) (n : Z) (t dn rest : bytes) : lres ip_item :=
  if ip_bits a <? n then LErr EParseNetwork (t ++ 47%N :: dn ++ rest) (length (t ++ 47%N :: dn))
  else if ip_num a mod 2 ^ (ip_bits a - n) =? 0 then LOk (cidr_item a n) rest
  else LErr EParseNetwork (t ++ 47%N :: dn ++ rest) (length t).

Theorem lex_cidr_text : forall t a n rest, ip_text t -> parse_addr t = Some a -> 0 <= n < 256 ->
  ip_follow_ok rest ->
  lex_ip_range (t ++ 47%N :: print_dec n ++ rest) = cidr_result a n t (print_dec n) rest.
Proof.
  intros t a n rest Ht Hp Hn Hr. pose proof (hexword_dec n ltac:(lia)) as Hw.
  destruct (hexword_word 46 _ eq_refl Hw) as [_ H46]. destruct (hexword_word 47 _ eq_refl Hw) as [_ H47].
  pose proof (find_dd_past t 0 (it_nodd t Ht) (it_last t Ht)) as Ht46. pose proof (prefix_len_print n Hn) as Hpl.
  set (dn := print_dec n) in *. unfold lex_ip_range.
  replace (t ++ 47%N :: dn ++ rest) with ((t ++ 47%N :: dn) ++ rest) by now rewrite <- app_assoc.
  rewrite match_chunk; [|now destruct t| |assumption].
  2:{ apply Forall_app. split; [apply Ht|]. constructor; [reflexivity|now apply hexword_ipc]. }
  cbn [lbind]. rewrite Ht46, find_sub_other, <- (app_nil_r dn), (find_sub_free 46 [46%N] dn H46), app_nil_r by discriminate.
  cbn [find_sub starts_with]. unfold parse_cidr.
  rewrite rfind_app, (rfind_none 47 t) by apply Ht. cbn [rfind_byte N.eqb Pos.eqb Nat.add].
  rewrite rfind_none by assumption.
  rewrite firstn_app_exact, <- Nat.add_1_r, skipn_prefix. cbn [skipn]. unfold parse_loose_ip. rewrite Hp, Hpl.
  unfold cidr_result. rewrite (find_sub_free 47 [] t (it_noslash t Ht)).
  cbn [find_sub starts_with N.eqb Pos.eqb Nat.add]. rewrite <- app_assoc. cbn [app].
  destruct a as [v|v]; cbn [ip_bits ip_num cidr_item].
  - destruct (32 <? n); [reflexivity|]. now destruct (v mod 2 ^ (32 - n) =? 0).
  - destruct (128 <? n); [reflexivity|]. now destruct (v mod 2 ^ (128 - n) =? 0).
Qed.

(* an address alone in a list is a host block *)
Theorem lex_host_text : forall t a rest, ip_text t -> parse_addr t = Some a -> ip_follow_ok rest ->
  lex_ip_range (t ++ rest) = LOk (cidr_item a (ip_bits a)) rest.
Proof.
  intros t a rest Ht Hp Hr. unfold lex_ip_range. rewrite match_chunk by (apply Ht || assumption).
  cbn [lbind]. rewrite (it_nodd t Ht). unfold parse_cidr. rewrite rfind_none by apply Ht.
  unfold parse_loose_ip. rewrite Hp. now destruct a.
Qed.

Definition range_result (a b : ip) (t1 t2 rest : bytes) : lres ip_item :=
  if same_family a b && (ip_num a <=? ip_num b) then LOk (range_item a b) rest
  else LErr EIncompatibleRangeBounds (t1 ++ DD ++ t2 ++ rest) (length (t1 ++ DD ++ t2)).

Theorem lex_range_text : forall t1 t2 a b rest, ip_text t1 -> ip_text t2 ->
  parse_addr t1 = Some a -> parse_addr t2 = Some b -> ip_follow_ok rest ->
  lex_ip_range (t1 ++ DD ++ t2 ++ rest) = range_result a b t1 t2 rest.
Proof.
  intros t1 t2 a b rest H1 H2 Ha Hb Hr. unfold lex_ip_range.
  replace (t1 ++ DD ++ t2 ++ rest) with ((t1 ++ DD ++ t2) ++ rest) by now rewrite <- !app_assoc.
  rewrite match_chunk; [|now destruct t1| |assumption].
  2:{ apply Forall_app. split; [apply H1|]. repeat (constructor; [reflexivity|]). apply H2. }
  cbn [lbind]. rewrite (find_dd_past t1 0 (it_nodd t1 H1) (it_last t1 H1)).
  cbn [app find_sub starts_with N.eqb Pos.eqb Nat.add].
  rewrite firstn_app_exact, skipn_prefix, Ha. cbn [skipn]. rewrite Hb. unfold range_result. rewrite <- !app_assoc.
  destruct a as [x|x], b as [y|y]; cbn [same_family ip_num range_item andb]; try reflexivity; now destruct (x <=? y).
Qed.

(* the characters of a text between two dots: hexadecimal digits and colons *)
Definition seg_char (b : N) : Prop := ipc b = true /\ b <> 47%N /\ b <> 46%N.

Lemma seg_chars : forall p, Forall seg_char p ->
  Forall (fun b => ipc b = true) p /\ Forall (fun b => b <> 47%N) p /\ Forall (fun b => b <> 46%N) p.
Proof. intros p H. rewrite !Forall_forall in *. repeat split; intros b Hb; now destruct (H b Hb) as (? & ? & ?). Qed.

Lemma hexword_seg : forall w, hexword w -> Forall seg_char w.
Proof.
  intros w H. pose proof (hexword_ipc w H) as Hc. destruct (hexword_word 46 w eq_refl H) as [_ H46].
  destruct (hexword_word 47 w eq_refl H) as [_ H47]. rewrite Forall_forall in *. repeat split; auto.
Qed.

Lemma ip_text_nodot : forall t, t <> [] -> Forall seg_char t -> ip_text t.
Proof.
  intros t Hne H. destruct (seg_chars t H) as (Hc & H47 & H46).
  split; [assumption..| |assumption|apply last_free; now split]. now apply isolated_nodd, find_sub_free.
Qed.

Lemma ip_text_prefix : forall p q, Forall seg_char p -> ip_text q -> ip_text (p ++ q).
Proof.
  intros p q H [Qne Qc Qd Qs Ql]. destruct (seg_chars p H) as (Hc & H47 & H46).
  split; [now destruct p, q|now apply Forall_app| |now apply Forall_app|now rewrite last_app_ne].
  apply isolated_nodd, isolated_app; [now apply find_sub_free|now apply (find_dd_past q 0)].
Qed.

Lemma print_v4_join : forall a b c d, print_v4 a b c d = join 46 [print_dec a; print_dec b; print_dec c; print_dec d].
Proof. reflexivity. Qed.

Lemma v4_words : forall a b c d, octet a -> octet b -> octet c -> octet d ->
  Forall hexword [print_dec a; print_dec b; print_dec c; print_dec d].
Proof. intros a b c d Ha Hb Hc Hd. repeat constructor; apply hexword_dec; (apply Ha || apply Hb || apply Hc || apply Hd). Qed.

Lemma parse_v4_print : forall a b c d, octet a -> octet b -> octet c -> octet d ->
  parse_v4 (print_v4 a b c d) = Some (v4_of a b c d).
Proof.
  intros a b c d Ha Hb Hc Hd. unfold parse_v4. rewrite print_v4_join, split_on_join; [|discriminate|].
  - now rewrite !dec_octet_print.
  - now apply words_free, (hexwords_words 46), v4_words.
Qed.

Lemma v4_ip_text : forall a b c d, octet a -> octet b -> octet c -> octet d -> ip_text (print_v4 a b c d).
Proof.
  intros a b c d Ha Hb Hc Hd. pose proof (v4_words a b c d Ha Hb Hc Hd) as W. rewrite print_v4_join.
  pose proof (hexwords_words 46 _ eq_refl W) as W46.
  destruct (join_head 46 (print_dec a) [print_dec b; print_dec c; print_dec d]) as (x & t & E & _); [now inversion W46|].
  split.
  - now rewrite E.
  - apply join_forall; [reflexivity|]. eapply Forall_impl; [|exact W]. exact hexword_ipc.
  - now apply isolated_nodd, (isolated_join _ 46 (find_sub_other 46 [46%N]) (find_sub_single 46)).
  - apply join_forall; [discriminate|]. now apply words_free, hexwords_words.
  - now apply last_join.
Qed.

Lemma parse_v4_nodot : forall t, Forall (fun b => b <> 46%N) t -> parse_v4 t = None.
Proof.
  intros t H. unfold parse_v4. change t with (join 46 [t]). now rewrite split_on_join by (discriminate || now constructor).
Qed.

(* a colon before the first dot: the first part is no octet *)
Lemma parse_v4_prefixed : forall p a b c d, Forall (fun x => x <> 46%N) p -> In 58%N p ->
  octet a -> octet b -> octet c -> octet d -> parse_v4 (p ++ print_v4 a b c d) = None.
Proof.
  intros p a b c d Hp H58 Ha Hb Hc Hd. unfold parse_v4.
  replace (p ++ print_v4 a b c d) with (join 46 [p ++ print_dec a; print_dec b; print_dec c; print_dec d])
    by (cbn [join]; now rewrite <- app_assoc).
  pose proof (v4_words a b c d Ha Hb Hc Hd) as W. rewrite split_on_join; [|discriminate|].
  - rewrite dec_octet_colon; [reflexivity|]. apply in_or_app. now left.
  - apply (hexwords_words 46), words_free in W; [|reflexivity].
    inversion W; subst. constructor; [now apply Forall_app|assumption].
Qed.

Lemma print_groups_join : forall u gs, print_groups u gs = join 58 (map (fun g => print_radix 16 g u) gs).
Proof.
  intros u gs. induction gs as [|g [|g' gs] IH]; [reflexivity..|].
  change (print_groups u (g :: g' :: gs)) with (print_radix 16 g u ++ 58%N :: print_groups u (g' :: gs)). now rewrite IH.
Qed.

Lemma group_words : forall u gs, Forall group16 gs -> Forall hexword (map (fun g => print_radix 16 g u) gs).
Proof. intros u gs H. apply Forall_map. eapply Forall_impl; [|exact H]. intros g Hg. apply hexword_print; [lia|apply Hg]. Qed.

Lemma parts_join : forall ws, Forall (word 58) ws -> parts_of (join 58 ws) = ws.
Proof.
  intros [|w ws] H; [reflexivity|]. destruct (join_head 58 w ws) as (x & t & E & _); [now inversion H|].
  unfold parts_of. rewrite E, <- E. apply split_on_join; [discriminate|now apply words_free].
Qed.

Lemma parse_groups_cons : forall p rest allow, rest <> [] ->
  parse_groups (p :: rest) allow =
  match hex_group p, parse_groups rest allow with Some g, Some gs => Some (g :: gs) | _, _ => None end.
Proof. intros p [|q rest] allow H; [contradiction|reflexivity]. Qed.

Lemma parse_groups_print : forall u gs ws vs allow, Forall group16 gs -> parse_groups ws allow = Some vs ->
  parse_groups (map (fun g => print_radix 16 g u) gs ++ ws) allow = Some (gs ++ vs).
Proof.
  intros u gs ws vs allow H Hws. induction H as [|g gs Hg _ IH]; [exact Hws|]. cbn [map app].
  destruct (map _ gs ++ ws) eqn:E.
  - apply app_eq_nil in E as [E ->]. apply map_eq_nil in E as ->. injection Hws as <-.
    cbn [parse_groups]. now rewrite hex_group_print.
  - now rewrite parse_groups_cons, hex_group_print, IH.
Qed.

Lemma parse_groups_map : forall u gs allow, Forall group16 gs ->
  parse_groups (map (fun g => print_radix 16 g u) gs) allow = Some gs.
Proof. intros u gs allow H. now rewrite <- (app_nil_r (map _ gs)), (parse_groups_print u gs [] []), app_nil_r. Qed.

Lemma v4_split16 : forall a b c d, octet a -> octet b -> octet c -> octet d ->
  v4_of a b c d / 65536 = a * 256 + b /\ v4_of a b c d mod 65536 = c * 256 + d.
Proof.
  intros a b c d Ha Hb Hc Hd. unfold v4_of, octet in *.
  replace (((a * 256 + b) * 256 + c) * 256 + d) with ((c * 256 + d) + (a * 256 + b) * 65536) by lia.
  split; [rewrite Z.div_add, Z.div_small by lia; lia|rewrite Z.mod_add by lia; apply Z.mod_small; lia].
Qed.

Lemma parse_groups_v4 : forall a b c d, octet a -> octet b -> octet c -> octet d ->
  parse_groups [print_v4 a b c d] true = Some [a * 256 + b; c * 256 + d].
Proof.
  intros a b c d Ha Hb Hc Hd. cbn [parse_groups]. replace (hex_group (print_v4 a b c d)) with (@None Z).
  - rewrite parse_v4_print by assumption. now destruct (v4_split16 a b c d) as [-> ->].
  - unfold hex_group. destruct (print_v4 a b c d) eqn:E; [reflexivity|]. rewrite <- E. unfold print_v4.
    rewrite forallb_app. cbn [forallb]. change (is_hexdigit 46) with false. cbn [andb]. now rewrite !andb_false_r.
Qed.

Lemma fdc_join : forall ws, Forall (word 58) ws -> isolated find_dcolon (join 58 ws).
Proof. exact (isolated_join find_dcolon 58 fdc_other fdc_single). Qed.

Lemma group_words58 : forall u gs, Forall group16 gs -> Forall (word 58) (map (fun g => print_radix 16 g u) gs).
Proof. intros u gs H. now apply hexwords_words, group_words. Qed.

(* eight groups, no `::` *)
Lemma parse_v6_plain : forall ws vs, Forall (word 58) ws -> parse_groups ws true = Some vs -> length vs = 8%nat ->
  parse_v6 (join 58 ws) = Some (v6_of vs 0).
Proof.
  intros ws vs Hw Hp Hl. unfold parse_v6. rewrite <- (app_nil_r (join 58 ws)) at 1. rewrite (fdc_join ws Hw).
  cbn [find_dcolon]. now rewrite parts_join, Hp, Hl.
Qed.

(* `::` between a head and a tail *)
Lemma parse_v6_gap : forall u hs ws vs, Forall group16 hs -> Forall (word 58) ws -> parse_groups ws true = Some vs ->
  (length hs + length vs <= 7)%nat ->
  parse_v6 (print_groups u hs ++ 58%N :: 58%N :: join 58 ws) =
  Some (v6_of (hs ++ repeat 0 (8 - (length hs + length vs)) ++ vs) 0).
Proof.
  intros u hs ws vs Hh Hw Hp Hl. rewrite print_groups_join. pose proof (group_words58 u hs Hh) as Hhw.
  unfold parse_v6. rewrite (fdc_join _ Hhw). cbn [find_dcolon Nat.add].
  rewrite firstn_app_exact, skipn_prefix. cbn [skipn]. rewrite !parts_join, Hp, parse_groups_map by assumption.
  now rewrite (proj2 (Nat.leb_le _ _)).
Qed.

Lemma groups_seg : forall u gs, Forall group16 gs -> Forall seg_char (print_groups u gs).
Proof.
  intros u gs H. rewrite print_groups_join. apply join_forall; [now repeat split|].
  eapply Forall_impl; [|now apply group_words]. exact hexword_seg.
Qed.

Lemma v4_word58 : forall a b c d, octet a -> octet b -> octet c -> octet d -> word 58 (print_v4 a b c d).
Proof.
  intros a b c d Ha Hb Hc Hd. split; [apply (v4_ip_text a b c d); assumption|].
  rewrite print_v4_join. apply join_forall; [discriminate|]. now apply words_free, (hexwords_words 58), v4_words.
Qed.

Lemma groups_ne : forall u gs, gs <> [] -> Forall group16 gs -> print_groups u gs <> [].
Proof.
  intros u [|g gs] Hne H; [contradiction|]. rewrite print_groups_join. cbn [map].
  destruct (join_head 58 (print_radix 16 g u) (map (fun g => print_radix 16 g u) gs)) as (x & t & -> & _); [|discriminate].
  apply (hexword_word 58); [reflexivity|]. apply hexword_print; [lia|]. now inversion H as [|? ? [? ?] _].
Qed.

(* the groups before a dotted tail, each followed by its colon *)
Definition colon_prefix (u : bool) (gs : list Z) : bytes :=
  match gs with [] => [] | _ => print_groups u gs ++ [58%N] end.

Lemma colon_prefix_join : forall u gs (v : bytes),
  colon_prefix u gs ++ v = join 58 (map (fun g => print_radix 16 g u) gs ++ [v]).
Proof.
  intros u [|g gs] v; [reflexivity|]. unfold colon_prefix.
  now rewrite print_groups_join, join_app, <- app_assoc by discriminate.
Qed.

Lemma colon_prefix_seg : forall u gs, Forall group16 gs -> Forall seg_char (colon_prefix u gs).
Proof.
  intros u [|g gs] H; [constructor|]. apply Forall_app. split; [now apply groups_seg|now repeat constructor].
Qed.

Lemma tail_v4 : forall u gs a b c d, Forall group16 gs -> octet a -> octet b -> octet c -> octet d ->
  Forall (word 58) (map (fun g => print_radix 16 g u) gs ++ [print_v4 a b c d]) /\
  parse_groups (map (fun g => print_radix 16 g u) gs ++ [print_v4 a b c d]) true = Some (gs ++ [a * 256 + b; c * 256 + d]).
Proof.
  intros u gs a b c d Hg Ha Hb Hc Hd. split.
  - apply Forall_app. split; [now apply group_words58|]. constructor; [now apply v4_word58|constructor].
  - apply parse_groups_print; [assumption|now apply parse_groups_v4].
Qed.

Lemma addr_text_facts : forall t a, addr_text t a -> ip_text t /\ parse_addr t = Some a.
Proof.
  intros t x [a b c d Ha Hb Hc Hd|u gs Hlen Hg|u hs ts Hn Hh Ht|u gs a b c d Hlen Hg Ha Hb Hc Hd
             |u hs ts a b c d Hn Hh Ht Ha Hb Hc Hd]; unfold parse_addr.
  - split; [now apply v4_ip_text|now rewrite parse_v4_print].
  - unfold print_v6_full. pose proof (groups_seg u gs Hg) as Hs. split.
    + apply ip_text_nodot; [apply groups_ne|]; now destruct gs.
    + rewrite parse_v4_nodot by apply (seg_chars _ Hs). rewrite print_groups_join.
      now rewrite (parse_v6_plain _ gs) by (assumption || now apply group_words58 || now apply parse_groups_map).
  - unfold print_v6_compressed. cbn [app].
    assert (Hs : Forall seg_char (print_groups u hs ++ 58%N :: 58%N :: print_groups u ts)).
    { apply Forall_app. split; [now apply groups_seg|]. repeat (constructor; [now repeat split|]). now apply groups_seg. }
    split; [apply ip_text_nodot; [now destruct (print_groups u hs)|assumption]|].
    rewrite parse_v4_nodot by apply (seg_chars _ Hs). rewrite (print_groups_join u ts).
    now rewrite (parse_v6_gap u hs _ ts) by (assumption || now apply group_words58 || now apply parse_groups_map).
  - unfold print_v6_embedded. assert (Hne : gs <> []) by now destruct gs.
    replace (print_groups u gs ++ 58%N :: print_v4 a b c d) with (colon_prefix u gs ++ print_v4 a b c d)
      by (destruct gs; [contradiction|unfold colon_prefix; now rewrite <- app_assoc]).
    split; [apply ip_text_prefix; [now apply colon_prefix_seg|now apply v4_ip_text]|].
    rewrite parse_v4_prefixed; try assumption; [|apply (seg_chars _ (colon_prefix_seg u gs Hg))
                                                |destruct gs; [contradiction|apply in_or_app; right; now left]].
    destruct (tail_v4 u gs a b c d) as [Hw Hp]; try assumption.
    rewrite colon_prefix_join, (parse_v6_plain _ _ Hw Hp); [reflexivity|]. now rewrite app_length, Hlen.
  - set (p := print_groups u hs ++ 58%N :: 58%N :: colon_prefix u ts).
    replace (print_v6_compressed_embedded u hs ts a b c d) with (p ++ print_v4 a b c d)
      by (unfold p, print_v6_compressed_embedded, colon_prefix; destruct ts; repeat (rewrite <- app_assoc; cbn [app]); reflexivity).
    assert (Hs : Forall seg_char p).
    { apply Forall_app. split; [now apply groups_seg|]. repeat (constructor; [now repeat split|]). now apply colon_prefix_seg. }
    split; [apply ip_text_prefix; [assumption|now apply v4_ip_text]|].
    rewrite parse_v4_prefixed; try assumption; [|apply (seg_chars _ Hs)|apply in_or_app; right; now left].
    destruct (tail_v4 u ts a b c d) as [Hw Hp]; try assumption.
    unfold p. rewrite <- app_assoc. cbn [app]. rewrite colon_prefix_join, (parse_v6_gap u hs _ _ Hh Hw Hp).
    + rewrite app_length. cbn [length]. now replace (8 - (length hs + (length ts + 2)))%nat with (6 - (length hs + length ts))%nat by lia.
    + rewrite app_length. cbn [length]. lia.
Qed.
