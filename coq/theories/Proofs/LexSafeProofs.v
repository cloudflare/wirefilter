(* C05/C06: no lexer ever answers LPanic or LFuel.  Proofs/LexFacts.v goes through the
   lexers, for [ldone]; here is what [ldone] says of LPanic and LFuel, lexer by lexer.
   The loops that answer LFuel when their fuel is used up (quoted_go, byte_string_go,
   ident_go) are started with length of the input + 1, which suffices.  raw_go answers
   None there, which lex_raw_string_as_str reports as EMissingEndingQuote: of that
   loop [safe] says nothing about fuel. *)
From WF Require Import Parse.Lex Proofs.LexBase Proofs.ParserProofs Proofs.LexFacts.

Lemma take_while_safe : forall f input, safe (take_while f input).
Proof. intros f input. exact (ldone_safe (take_while_done f input) I). Qed.

Lemma take_safe : forall n input, safe (take n input).
Proof. intros n input. exact (ldone_safe (take_done n input) I). Qed.

Lemma fixed_byte_safe : forall n radix input, safe (fixed_byte n radix input).
Proof. intros n radix input. exact (ldone_safe (fixed_byte_done n radix input) I). Qed.

Lemma lex_int_safe : forall input, safe (lex_int input).
Proof. intros input. exact (ldone_safe (lex_int_done input) I). Qed.

Lemma lex_int_range_safe : forall input, safe (lex_int_range input).
Proof. intros input. exact (ldone_safe (lex_int_range_done input) I). Qed.

Lemma lex_quoted_safe : forall input, safe (lex_quoted_string_as_vec input).
Proof. intros input. exact (ldone_safe (lex_quoted_done input input (suffix_refl _)) I). Qed.

Lemma byte_string_go_safe : forall fuel s acc, (length s < fuel)%nat -> safe (byte_string_go fuel s acc).
Proof. intros fuel s acc. exact (ldone_safe (byte_string_go_done s fuel s acc (suffix_refl _))). Qed.

Lemma lex_byte_string_safe : forall input, safe (lex_byte_string input).
Proof. intros input. exact (ldone_safe (lex_byte_string_done input) I). Qed.

Lemma lex_raw_safe : forall input, safe (lex_raw_string_as_str input).
Proof. intros input. exact (ldone_safe (lex_raw_done input) I). Qed.

Lemma lex_quoted_or_raw_safe : forall input, safe (lex_quoted_or_raw_string input).
Proof. intros input. exact (ldone_safe (lex_quoted_or_raw_done input) I). Qed.

Lemma lex_bytes_safe : forall input, safe (lex_bytes input).
Proof. intros input. exact (ldone_safe (lex_bytes_done input) I). Qed.

Lemma lex_ip_safe : forall input, safe (lex_ip input).
Proof. intros input. exact (ldone_safe (lex_ip_done input) I). Qed.

Lemma lex_ip_range_safe : forall input, safe (lex_ip_range input).
Proof. intros input. exact (ldone_safe (lex_ip_range_done input) I). Qed.

Lemma lex_list_name_safe : forall input, safe (lex_list_name input).
Proof. intros input. exact (ldone_safe (lex_list_name_done input) I). Qed.

Lemma ident_go_safe : forall fuel s, (length s < fuel)%nat -> safe (ident_go fuel s).
Proof. intros fuel s. exact (ldone_safe (ident_go_done s fuel s (suffix_refl _))). Qed.

Lemma lex_ident_name_safe : forall input, safe (lex_ident_name input).
Proof. intros input. exact (ldone_safe (lex_ident_name_done input) I). Qed.

Lemma lex_field_index_safe : forall input, safe (lex_field_index input).
Proof. intros input. exact (ldone_safe (lex_field_index_done input) I). Qed.
