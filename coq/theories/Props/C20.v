(* C20 — The C API mirrors the Rust API and reports failures via status and
   last-error.  Only the property theorems, each a lemma of Proofs/FfiProofs.v or
   a line away from one (the two witnesses against the code before F8's repair by
   evaluation).  All statements are for operation sequences / call
   histories of any length (induction in Proofs/FfiProofs.v).  The "mirrors the
   Rust API" half is the correspondence run (the harness calls the exported
   functions next to the Rust API, Run/C20.v). *)
From Coq Require Import List NArith.
From WF Require Import Sem.CString Sem.FfiProto Spec.C20 Proofs.FfiProofs.
Import ListNotations.
Open Scope N_scope.

(* For EVERY sequence of append / clear on a new CString: the buffer is empty (and
   as_c_str is NULL) exactly when nothing was appended since the last clear;
   otherwise it is the C string (NUL-terminated, no interior NUL) whose content is
   the NUL-substituted concatenation of everything appended since the last clear,
   and that is what a C caller reads through as_c_str. *)
Theorem C20_cstring_inv : forall ops : list cs_op,
  match spec_pending None ops with
  | None => cs_run cs_new ops = [] /\ cs_as_c_str (cs_run cs_new ops) = None
  | Some m =>
      is_c_string (cs_run cs_new ops) (spec_text m) /\
      cs_as_c_str (cs_run cs_new ops) = Some (cs_run cs_new ops) /\
      c_read (cs_run cs_new ops) = Some (spec_text m) /\
      cs_view (cs_run cs_new ops) = VStr (spec_text m)
  end.
Proof. exact cstring_inv. Qed.

(* What append does when called twice without a clear (read from the code: it pops
   the terminator, extends, substitutes NUL in the new bytes only, pushes a new
   terminator): the second call continues the first, from ANY buffer. *)
Theorem C20_cstring_append_twice : forall s a b,
  cs_append (cs_append s a) b = cs_append s (a ++ b).
Proof. exact cs_append_twice. Qed.

Theorem C20_cstring_append_is : forall s buf,
  cs_append s buf = removelast s ++ spec_text buf ++ [0].
Proof. exact cs_append_simpl. Qed.

(* ... and whatever the buffer held before (even an ill-formed vector), a clear
   makes the rest of the sequence behave as on a new CString. *)
Theorem C20_cstring_clear_resets : forall s0 ops1 ops2,
  cs_run s0 (ops1 ++ CsClear :: ops2) = cs_run cs_new ops2.
Proof. intros s0 ops1 ops2. rewrite cs_run_app. reflexivity. Qed.

(* write!(last_error, ..): the fragments of a formatted message are concatenated;
   a message whose text is empty leaves the buffer empty (NULL). *)
Theorem C20_write_fmt : forall msg,
  cs_write_fmt cs_new msg = match concat msg with [] => [] | m => spec_text m ++ [0] end.
Proof. exact cs_write_fmt_new. Qed.

(* Model = specification for EVERY call history of one thread, from any pair of
   related states (in particular the initial ones): same results, same last-error
   view after every call (never an ill-formed buffer: [view_of] has no VBad), same
   process state, and the final states are related again. *)
Theorem C20_model_is_spec : forall h p st a, rel st a ->
  map abs_obs (fst (fst (run false p st h))) = fst (fst (spec_run p a h)) /\
  snd (fst (run false p st h)) = snd (fst (spec_run p a h)) /\
  rel (snd (run false p st h)) (snd (spec_run p a h)).
Proof. exact run_refines. Qed.

(* The protocol, clause by clause; (1)-(3) hold from ANY thread state, hence after
   every call history:
   (1) after a failing call (whatever the function, the failure site and what the
       buffer held), the call returns its kind's failure value and get_last_error
       returns exactly that call's message, NUL-substituted and NUL-terminated,
       which is what a C caller reads;
   (2) a succeeding call other than clear_last_error leaves the buffer unchanged;
   (3) clear_last_error empties it: get_last_error returns NULL;
   (4) frame: a call on one thread does not touch the other thread's state;
   (5) interleaving independence: with the hook installed and no abort, under every
       schedule that lets both threads finish, each thread's observations (results
       and its own last error after each of its calls) are those of running its
       history alone. *)
Theorem C20_last_error_protocol :
  (forall p st f site msg, p_dead p = false -> concat msg <> [] ->
     exists st',
       step false p st (Call f (Failure site msg)) = (p, st', ret_failure f) /\
       t_enabled st' = t_enabled st /\
       is_c_string (t_err st') (spec_text (concat msg)) /\
       step false p st' (Call F_get_last_error Success)
         = (p, st', RErrPtr (Some (spec_text (concat msg) ++ [0]))) /\
       c_read (spec_text (concat msg) ++ [0]) = Some (spec_text (concat msg))) /\
  (forall coded p st f, f <> F_clear_last_error ->
     t_err (snd (fst (step coded p st (Call f Success)))) = t_err st) /\
  (forall coded p st, p_dead p = false ->
     exists st',
       step coded p st (Call F_clear_last_error Success) = (p, st', RUnit) /\
       t_err st' = [] /\
       step coded p st' (Call F_get_last_error Success) = (p, st', RErrPtr None)) /\
  (forall coded g c,
     g_b (fst (gstep coded g TA c)) = g_b g /\ g_a (fst (gstep coded g TB c)) = g_a g) /\
  (forall sched coded g ha hb oa ob g',
     interleave coded sched g ha hb = (oa, ob, g', [], []) ->
     p_hook (g_p g) = true -> p_dead (g_p g') = false ->
     oa = fst (fst (run coded (g_p g) (g_a g) ha)) /\
     ob = fst (fst (run coded (g_p g) (g_b g) hb))).
Proof.
  exact (conj failing_call_sets_message
        (conj succeeding_call_keeps_message
        (conj clear_empties
        (conj gstep_frame
        (fun sched coded g ha hb oa ob g' Hi Hh Hd =>
           proj2 (interleave_alone sched coded g ha hb oa ob g' Hi Hh Hd)))))).
Qed.

(* With the hook installed and the catcher enabled on the calling thread, a panic
   inside parse, compile or match (and uses_list) is returned as the panic status,
   and the last error is the C string of the catcher's text, which contains the
   (NUL-substituted) panic message; for both values of [coded], since F8 does not
   touch the panic path. *)
Theorem C20_panic_status_spec : forall coded p st f pre payload post,
  p_dead p = false -> p_hook p = true -> t_enabled st = true ->
  f = F_parse_filter \/ f = F_compile_filter \/ f = F_match \/ f = F_filter_uses_list ->
  pre ++ payload ++ post <> [] ->
  exists st',
    step coded p st (Call f (Panicked pre payload post)) = (p, st', RStatus StPanic) /\
    t_enabled st' = true /\
    is_c_string (t_err st') (spec_text pre ++ spec_text payload ++ spec_text post).
Proof. exact panic_status_spec. Qed.

(* The model's explicit outcome for the other case: catcher disabled on the thread,
   or a function that is not wrapped in catch_panic: the panic reaches the
   extern "C" boundary and the process aborts. *)
Theorem C20_panic_uncaught_aborts : forall coded p st f pre payload post,
  p_dead p = false -> catches f = false \/ t_enabled st = false ->
  step coded p st (Call f (Panicked pre payload post)) = (mk_pstate (p_hook p) true, st, RAbort).
Proof. exact panic_uncaught_aborts. Qed.

(* The code as it stood when the model was written (finding F8, repaired in /repo
   by the commit "fix: C API bool-returning add functions write the last error on
   failure"; the correspondence now runs against [run false], the intended
   protocol, and the as-coded variant is kept as the record of the defect).
   [run true] mirrors the wrappers before the repair: the bool-returning functions
   that ended in `.is_ok()` returned false without writing the last error.  Clause
   (1) of the protocol is refuted for it, with a NULL and with a stale message: *)
Theorem C20_last_error_protocol_refuted_as_coded :
  (exists f msg, concat msg <> [] /\
     step true (mk_pstate true false) init_tstate (Call f (Failure AtEngine msg))
       = (mk_pstate true false, init_tstate, RBool false) /\
     cs_as_c_str (t_err init_tstate) = None) /\
  (exists h, fst (fst (run true (mk_pstate true false) init_tstate h))
             = [(RStatus StError, [80; 0]); (RBool false, [80; 0])] /\
             fst (fst (run false (mk_pstate true false) init_tstate h))
             = [(RStatus StError, [80; 0]); (RBool false, [73; 0])]).
Proof.
  split.
  - exists F_add_int_value, [[73]]. split; [discriminate|]. split; reflexivity.
  - exists [Call F_parse_filter (Failure AtEngine [[80]]); Call F_add_int_value (Failure AtEngine [[73]])].
    split; reflexivity.
Qed.

(* ... exactly there and nowhere else: the failing call returns false and keeps the
   buffer, and a history without such a failure runs as intended. *)
Theorem C20_as_coded_differs_only_at_is_ok_failures :
  (forall p st f msg, p_dead p = false -> is_ok_fn f = true ->
     step true p st (Call f (Failure AtEngine msg)) = (p, st, RBool false)) /\
  (forall h p st, forallb (fun c => negb (f8_call c)) h = true ->
     run true p st h = run false p st h).
Proof. exact (conj coded_is_ok_failure_keeps_message run_coded_eq). Qed.

(* a sequence with interior NULs, two appends in a row, a clear and an empty append *)
Example C20_cstring_inv_nontrivial :
  cs_run cs_new [CsAppend [65; 0; 66]; CsAppend [0]; CsClear; CsAppend []; CsAppend [0; 67]]
  = [26; 67; 0] /\
  spec_pending None [CsAppend [65; 0; 66]; CsAppend [0]; CsClear; CsAppend []; CsAppend [0; 67]]
  = Some [0; 67] /\
  cs_run cs_new [CsAppend [65; 0; 66]; CsAppend [0]] = [65; 26; 66; 26; 0] /\
  cs_run cs_new [CsAppend [65]; CsClear; CsAppend []] = [0].
Proof. repeat split. Qed.

(* the initial states are related; a history mixing failing, succeeding, clearing
   and panicking calls *)
Example C20_model_is_spec_premise : rel init_tstate init_astate.
Proof. split; reflexivity. Qed.

Example C20_protocol_nontrivial :
  map abs_obs (fst (fst (run false (mk_pstate true false) init_tstate
    [Call F_parse_filter (Failure AtEngine [[69; 0]; []; [33]]);
     Call F_add_int_value Success;
     Call F_add_int_value (Failure AtToStr [[85]]);
     Call F_clear_last_error Success;
     Call F_enable_panic_catcher Success;
     Call F_match (Panicked [112] [0] [113]);
     Call F_get_last_error Success])))
  = [(RStatus StError, VStr [69; 26; 33]); (RBool true, VStr [69; 26; 33]); (RBool false, VStr [85]);
     (RUnit, VNull); (RUnit, VNull); (RStatus StPanic, VStr [112; 26; 113]);
     (RErrPtr (Some [112; 26; 113; 0]), VStr [112; 26; 113])].
Proof. reflexivity. Qed.

(* the premises of the interleaving clause are satisfiable with both threads failing *)
Example C20_interleaving_premise :
  exists oa ob g',
    interleave false [TA; TB; TB; TA] (mk_gstate (mk_pstate true false) init_tstate init_tstate)
      [Call F_parse_filter (Failure AtEngine [[65]]); Call F_get_last_error Success]
      [Call F_match (Failure AtEngine [[66]]); Call F_clear_last_error Success]
    = (oa, ob, g', [], []) /\ p_dead (g_p g') = false /\
    oa = [(RStatus StError, [65; 0]); (RErrPtr (Some [65; 0]), [65; 0])] /\
    ob = [(RStatus StError, [66; 0]); (RUnit, [])].
Proof.
  (* the witnesses are written out: left to unification they come back as
     unevaluated copies of the run, which every later conjunct evaluates again *)
  exists [(RStatus StError, [65; 0]); (RErrPtr (Some [65; 0]), [65; 0])],
         [(RStatus StError, [66; 0]); (RUnit, [])],
         (mk_gstate (mk_pstate true false) (mk_tstate [65; 0] false) (mk_tstate [] false)).
  repeat split.
Qed.

Example C20_panic_premises :
  exists st', step true (mk_pstate true false) (mk_tstate [88; 0] true)
                (Call F_match (Panicked [112] [98; 111; 111; 109] [113]))
              = (mk_pstate true false, st', RStatus StPanic) /\
              t_err st' = [112; 98; 111; 111; 109; 113; 0].
Proof. eexists. split; reflexivity. Qed.

Check C20_cstring_inv : forall ops : list cs_op,
  match spec_pending None ops with
  | None => cs_run cs_new ops = [] /\ cs_as_c_str (cs_run cs_new ops) = None
  | Some m =>
      is_c_string (cs_run cs_new ops) (spec_text m) /\
      cs_as_c_str (cs_run cs_new ops) = Some (cs_run cs_new ops) /\
      c_read (cs_run cs_new ops) = Some (spec_text m) /\
      cs_view (cs_run cs_new ops) = VStr (spec_text m)
  end.
Check C20_model_is_spec : forall h p st a, rel st a ->
  map abs_obs (fst (fst (run false p st h))) = fst (fst (spec_run p a h)) /\
  snd (fst (run false p st h)) = snd (fst (spec_run p a h)) /\
  rel (snd (run false p st h)) (snd (spec_run p a h)).
Check C20_panic_status_spec : forall coded p st f pre payload post,
  p_dead p = false -> p_hook p = true -> t_enabled st = true ->
  f = F_parse_filter \/ f = F_compile_filter \/ f = F_match \/ f = F_filter_uses_list ->
  pre ++ payload ++ post <> [] ->
  exists st',
    step coded p st (Call f (Panicked pre payload post)) = (p, st', RStatus StPanic) /\
    t_enabled st' = true /\
    is_c_string (t_err st') (spec_text pre ++ spec_text payload ++ spec_text post).

Print Assumptions C20_cstring_inv.
Print Assumptions C20_cstring_append_twice.
Print Assumptions C20_cstring_append_is.
Print Assumptions C20_cstring_clear_resets.
Print Assumptions C20_write_fmt.
Print Assumptions C20_model_is_spec.
Print Assumptions C20_last_error_protocol.
Print Assumptions C20_panic_status_spec.
Print Assumptions C20_panic_uncaught_aborts.
Print Assumptions C20_last_error_protocol_refuted_as_coded.
Print Assumptions C20_as_coded_differs_only_at_is_ok_failures.
