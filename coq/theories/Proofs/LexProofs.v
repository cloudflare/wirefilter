(* C06: what the lexers answer on the texts that Spec/C06.v prints, literal form by literal form: the
   verdicts of LexIntProofs / LexBytesProofs / LexIpProofs / LexMiscProofs, read at the accepted and
   at the rejected texts.  The files it rests on are re-exported, LexSafeProofs (no lexer answers
   LPanic or LFuel) among them, so that Props/C06.v needs this one only. *)
From Coq Require Import List ZArith Bool Lia.
From WF Require Import Sem.RangeSet Lang.Ast Parse.Lex Spec.C06.
From WF Require Export Proofs.LexBase Proofs.LexIntProofs Proofs.LexBytesProofs Proofs.LexIpProofs Proofs.LexMiscProofs Proofs.LexSafeProofs.
Import ListNotations.
Local Open Scope Z_scope.

Lemma int_out_of_range_rejected : forall f v rest, ~ in_i64 v -> int_form_ok f v -> int_follow_ok rest ->
  exists at_ len, lex_int (print_int f v ++ rest) = LErr EParseInt at_ len.
Proof.
  intros f v rest Hv Hok Hf. destruct (lex_int_print f v rest Hok Hf) as (a & n & ->). exists a, n.
  now replace ((I64_MIN <=? v) && (v <=? I64_MAX)) with false by (unfold in_i64, i64_min, i64_max, I64_MIN, I64_MAX in *; lia).
Qed.

Lemma int_range_roundtrip : forall f1 f2 a b rest,
  in_i64 a -> in_i64 b -> int_form_ok f1 a -> int_form_ok f2 b -> a <= b -> int_follow_ok rest ->
  lex_int_range (print_int_range f1 f2 a b ++ rest) = LOk (a, b) rest.
Proof.
  intros f1 f2 a b rest Ha Hb H1 H2 Hab Hf. rewrite int_range_lex by assumption.
  replace (b <? a) with false by lia. reflexivity.
Qed.

Lemma quoted_roundtrip : forall l rest, styles_ok l ->
  lex_bytes (print_quoted l ++ rest) = LOk (map snd l, FQuoted) rest.
Proof.
  intros l rest Hok. unfold print_quoted. cbn [app]. rewrite <- app_assoc. cbn [app].
  now rewrite lex_bytes_quoted, quoted_body_lex.
Qed.

Lemma raw_roundtrip : forall n body rest, (n <= 255)%nat -> utf8_chars body -> no_early_close n body ->
  lex_bytes (print_raw n body ++ rest) = LOk (body, FRaw (N.of_nat n)) rest.
Proof.
  intros n body rest Hn Hu Hc. unfold print_raw. cbn [app]. rewrite lex_bytes_raw.
  repeat (rewrite <- app_assoc; cbn [app]). now rewrite raw_body_lex.
Qed.

Lemma raw_roundtrip_utf8 : forall n body rest, (n <= 255)%nat -> utf8_valid body = true -> no_early_close n body ->
  lex_bytes (print_raw n body ++ rest) = LOk (body, FRaw (N.of_nat n)) rest.
Proof. intros n body rest Hn Hu Hc. apply raw_roundtrip; [assumption|apply utf8_valid_chars; assumption|assumption]. Qed.

Lemma raw_256_rejected : forall n s, (255 < n)%nat ->
  lex_bytes (114%N :: hashes n ++ 34%N :: s) =
  LErr EInvalidRawStringHashCount (hashes n ++ 34%N :: s) (length (hashes n ++ 34%N :: s)).
Proof.
  intros n s H. rewrite lex_bytes_raw, raw_too_many_hashes; [reflexivity|]. rewrite count_hashes_app. lia.
Qed.

Lemma hexpairs_roundtrip : forall u1 u2 b0 l rest,
  (b0 < 256)%N -> hextail_ok l -> l <> [] -> hexpairs_follow_ok rest ->
  lex_bytes (print_hexpairs u1 u2 b0 l ++ rest) = LOk (b0 :: map snd l, FByte) rest.
Proof.
  intros u1 u2 b0 l rest Hb Hl Hne Hr.
  pose proof (hexpairs_lex u1 u2 b0 l rest Hb Hl Hne Hr) as E.
  unfold print_hexpairs, print_hexpair in *. cbn [app] in *.
  assert (Hd : 0 <= Z.of_N b0 / 16 < 16) by (split; [apply Z.div_pos|apply Z.div_lt_upper_bound]; lia).
  now rewrite lex_bytes_other, E by now apply digit_char_neq.
Qed.

Lemma addr_roundtrip : forall t a rest, addr_text t a -> ip_follow_ok rest -> lex_ip (t ++ rest) = LOk a rest.
Proof.
  intros t a rest H Hr. destruct (addr_text_facts t a H) as [Ht Hp]. apply lex_ip_text; assumption.
Qed.

Lemma ipv4_roundtrip : forall a b c d rest, octet a -> octet b -> octet c -> octet d -> ip_follow_ok rest ->
  lex_ip (print_v4 a b c d ++ rest) = LOk (V4 (v4_of a b c d)) rest.
Proof. intros. apply addr_roundtrip; [constructor|]; assumption. Qed.

Lemma ipv6_full_roundtrip : forall upper gs rest, length gs = 8%nat -> Forall group16 gs -> ip_follow_ok rest ->
  lex_ip (print_v6_full upper gs ++ rest) = LOk (V6 (v6_of gs 0)) rest.
Proof. intros. apply addr_roundtrip; [constructor|]; assumption. Qed.

Lemma lex_cidr_addr : forall t a n rest, addr_text t a -> 0 <= n < 256 -> ip_follow_ok rest ->
  lex_ip_range (t ++ 47%N :: print_dec n ++ rest) = cidr_result a n t (print_dec n) rest.
Proof. intros t a n rest H. destruct (addr_text_facts t a H). now apply lex_cidr_text. Qed.

Lemma lex_range_addr : forall t1 t2 a b rest, addr_text t1 a -> addr_text t2 b -> ip_follow_ok rest ->
  lex_ip_range (t1 ++ [46%N; 46%N] ++ t2 ++ rest) = range_result a b t1 t2 rest.
Proof.
  intros t1 t2 a b rest H1 H2. destruct (addr_text_facts t1 a H1), (addr_text_facts t2 b H2). now apply lex_range_text.
Qed.

Lemma ip_bits_small : forall a, 0 < ip_bits a < 256.
Proof. destruct a; cbn; lia. Qed.

Lemma cidr_roundtrip : forall t a n rest, addr_text t a -> 0 <= n <= ip_bits a ->
  ip_num a mod 2 ^ (ip_bits a - n) = 0 -> ip_follow_ok rest ->
  lex_ip_range (t ++ 47%N :: print_dec n ++ rest) = LOk (cidr_item a n) rest.
Proof.
  intros t a n rest H Hn Hm Hr. pose proof (ip_bits_small a). rewrite (lex_cidr_addr t a) by (assumption || lia).
  unfold cidr_result. now rewrite (proj2 (Z.ltb_ge _ _)), Hm by lia.
Qed.

Lemma host_bits_rejected : forall t a n rest, addr_text t a -> 0 <= n <= ip_bits a ->
  ip_num a mod 2 ^ (ip_bits a - n) <> 0 -> ip_follow_ok rest ->
  lex_ip_range (t ++ 47%N :: print_dec n ++ rest) =
  LErr EParseNetwork (t ++ 47%N :: print_dec n ++ rest) (length t).
Proof.
  intros t a n rest H Hn Hm Hr. pose proof (ip_bits_small a). rewrite (lex_cidr_addr t a) by (assumption || lia).
  unfold cidr_result. now rewrite (proj2 (Z.ltb_ge _ _)), (proj2 (Z.eqb_neq _ _)) by (assumption || lia).
Qed.

Lemma host_in_list : forall t a rest, addr_text t a -> ip_follow_ok rest ->
  lex_ip_range (t ++ rest) = LOk (cidr_item a (ip_bits a)) rest.
Proof. intros t a rest H Hr. destruct (addr_text_facts t a H). now apply lex_host_text. Qed.

Lemma ip_range_roundtrip : forall t1 t2 a b rest, addr_text t1 a -> addr_text t2 b ->
  same_family a b = true -> ip_num a <= ip_num b -> ip_follow_ok rest ->
  lex_ip_range (t1 ++ [46%N; 46%N] ++ t2 ++ rest) = LOk (range_item a b) rest.
Proof.
  intros t1 t2 a b rest H1 H2 Hs Hab Hr. rewrite (lex_range_addr t1 t2 a b) by assumption.
  unfold range_result. now rewrite Hs, (proj2 (Z.leb_le _ _)).
Qed.

Lemma mixed_family_rejected : forall t1 t2 a b rest, addr_text t1 a -> addr_text t2 b ->
  same_family a b = false -> ip_follow_ok rest ->
  lex_ip_range (t1 ++ [46%N; 46%N] ++ t2 ++ rest) =
  LErr EIncompatibleRangeBounds (t1 ++ [46%N; 46%N] ++ t2 ++ rest) (length (t1 ++ [46%N; 46%N] ++ t2)).
Proof.
  intros t1 t2 a b rest H1 H2 Hs Hr. rewrite (lex_range_addr t1 t2 a b) by assumption.
  unfold range_result. now rewrite Hs.
Qed.

Lemma index_roundtrip : forall f n rest, 0 <= n < 4294967296 -> int_form_ok f n -> int_follow_ok rest ->
  lex_field_index (print_int f n ++ rest) = LOk (RIArr (Z.to_N n)) rest.
Proof.
  intros f n rest Hn Hok Hf. rewrite index_lex by assumption.
  replace ((0 <=? n) && (n <? 4294967296)) with true by lia. reflexivity.
Qed.

Lemma map_key_utf8_only : forall l rest, styles_ok l ->
  lex_field_index (print_quoted l ++ rest) =
  if utf8_valid (map snd l) then LOk (RIKey (map snd l)) rest
  else LErr EExpectedLiteral (print_quoted l ++ rest) (length (print_quoted l ++ rest)).
Proof.
  intros l rest Hok. pose proof (quoted_roundtrip l rest Hok) as E.
  unfold print_quoted in *. cbn [app] in *. now rewrite lfi_key, E.
Qed.
