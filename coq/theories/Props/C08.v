(* C08 — Execution contexts are typed field maps bound to one scheme.
   The property theorems, each an instance of a general lemma of
   Proofs/CtxApiProofs.v or a few lines from them, and their non-vacuity examples. *)
From Coq Require Import List ZArith.
From WF Require Import Lang.Types Spec.Typing Sem.CtxApi Spec.C08 Proofs.CtxApiProofs.
Import ListNotations.
Open Scope nat_scope.

(* For EVERY operation sequence (set by field, set by name, get, clear,
   clone_with, borrow_with .. drop, take_with, new, execute; any length, any
   nesting of borrows, any slots, handles and field indices, valid or not)
   from the initial world, the observations of the model of the API equal those
   of the abstract typed map.  The only premise: the values offered were built
   by the checked constructors (C08_containers_homogeneous: nothing else can
   be built). *)
Theorem C08_ctx_refines_typed_map : forall (cf : config) (ops : list op),
  forallb op_wf ops = true -> run cf ops = a_run cf ops.
Proof. exact (fun cf ops => sim_run cf ops _ _ (sim_init cf)). Qed.

(* A failed set (type mismatch, scheme mismatch, unknown field) leaves the
   whole world unchanged; from any world, invariant or not. *)
Theorem C08_failed_set_changes_nothing : forall cf w o err,
  snd (step cf w o) = ObErr err -> fst (step cf w o) = w.
Proof. exact failed_set_changes_nothing. Qed.

(* A successful set returns what a read just before would have returned, and
   a read just after returns the value set. *)
Theorem C08_set_returns_previous : forall cf w c h f v w1 old,
  inv cf w -> step cf w (OSetByField c h f v) = (w1, ObPrev old) ->
  snd (step cf w (OGet c h f)) = ObVal old /\ snd (step cf w1 (OGet c h f)) = ObVal (Some v).
Proof.
  intros cf w c h f v w1 old Hinv H. cbn [step] in *.
  destruct (nth_error (cf_idents cf) h) as [tok|]; [|discriminate].
  destruct (nth_error (cf_fields cf) f) as [fd|]; [|discriminate].
  destruct (cur w c) as [e|] eqn:Hc; [|discriminate].
  destruct (Nat.eqb (ec_tok e) tok) eqn:Htok; [|discriminate].
  destruct (set_checked_prev cf w c e f _ v w1 old (inv_shape _ _ Hinv) Hc H) as [Hold ->].
  cbn [ec_tok ec_vals]. now rewrite Hold, Htok, nth_error_set_nth, Nat.eqb_refl, Hold.
Qed.

(* the invariant used above holds in every reachable world *)
Theorem C08_inv_reachable : forall cf ops, inv cf (fst (run_from cf (init cf) ops)).
Proof. intros cf ops. apply inv_run. apply inv_init. Qed.

(* Over all histories: every context the program can name has one slot per
   field and every stored value has the declared FULL nested type, although
   the API only compares the outer type tags. *)
Theorem C08_ctx_inv_well_typed : forall cf ops,
  forallb op_wf ops = true ->
  forall c e, cur (fst (run_from cf (init cf) ops)) c = Some e ->
    length (ec_vals e) = length (cf_fields cf) /\
    forall f v, nth_error (ec_vals e) f = Some (Some v) ->
      exists fd, nth_error (cf_fields cf) f = Some fd /\ has_type v (fd_ty fd) = true.
Proof.
  exact (fun cf ops Hwf c e H =>
           conj (inv_vals _ _ (inv_run cf ops _ (inv_init cf)) c e H)
                (typed_run cf ops _ (inv_init cf) (typed_init cf) Hwf c e H)).
Qed.

(* ... which is Spec/Typing.v's [slots_ok] once the mandatory fields are set. *)
Theorem C08_visible_slots_ok : forall cf ops,
  forallb op_wf ops = true ->
  forall c e, cur (fst (run_from cf (init cf) ops)) c = Some e ->
    (forall f fd, nth_error (cf_fields cf) f = Some fd -> nth_error (ec_vals e) f = Some None ->
                  fd_optional fd = true) ->
    slots_ok (cf_fields cf) (ec_vals e) = true.
Proof.
  exact (fun cf ops Hwf c e Hc Hopt =>
           let (Hlen, Hok) := C08_ctx_inv_well_typed cf ops Hwf c e Hc in slots_ok_of_stored _ _ Hlen Hok Hopt).
Qed.

Theorem C08_clone_independent : forall cf w src dst w1,
  inv cf w -> step cf w (OCloneWith src dst) = (w1, ObOk) -> src <> dst ->
  (exists e, cur w src = Some e /\ cur w1 src = Some e /\ cur w1 dst = Some e) /\
  forall c ops, c = src \/ c = dst ->
    forallb (fun o => negb (writes o c)) ops = true ->
    cur (fst (run_from cf w1 ops)) c = cur w1 c.
Proof.
  intros cf w src dst w1 Hinv H Hne. split.
  - destruct (clone_with_ok cf w src dst w1 (inv_shape _ _ Hinv) H) as (e & He & Hcur). exists e.
    rewrite !Hcur, Nat.eqb_refl, He. now apply Nat.eqb_neq in Hne as ->.
  - intros c ops _ Hw. apply run_frame; [|exact Hw]. change w1 with (fst (w1, ObOk)). rewrite <- H. now apply inv_step.
Qed.

Theorem C08_guard_writes_through : forall cf w, inv cf w ->
  (forall c w1, step cf w (OBorrowBegin c) = (w1, ObOk) ->
     exists e, cur w c = Some e /\
       (forall c', cur w1 c' = cur w c') /\
       map fst (w_guards w1) = c :: map fst (w_guards w) /\
       cur_in (tl (w_guards w1)) (w_ctxs w1) c = Some {| ec_tok := ec_tok e; ec_vals := [] |}) /\
  (forall w1, step cf w OBorrowEnd = (w1, ObOk) ->
     (forall c', cur w1 c' = cur w c') /\ map fst (w_guards w1) = tl (map fst (w_guards w))).
Proof.
  intros cf w Hinv. pose proof (inv_shape _ _ Hinv) as Hs. split.
  - intros c w1 H. cbn [step] in H. destruct (cur w c) as [e|] eqn:Hc; [|discriminate].
    injection H as <-. exists e. split; [reflexivity|].
    destruct (push_guard_effect cf w c e Hs Hc) as (_ & Hfst & Hcur & Hbelow). now repeat split.
  - intros w1 H. cbn [step] in H. destruct (w_guards w) as [|[c n] r] eqn:Hg; [discriminate|].
    destruct (pop_guard_effect cf w c n r Hs Hg) as (old & Hold & _ & Hfst & Hcur).
    rewrite Hold in H. injection H as <-. now split.
Qed.

Theorem C08_containers_homogeneous :
  (forall t l, array_new t l = spec_array t l) /\
  (forall t kvs, map_new t kvs = spec_map t kvs) /\
  (forall t l v, array_new t l = Some v <-> (Forall (fun x => type_of x = t) l /\ v = VArray t l)) /\
  (forall t l v, array_new t l = Some v -> forallb value_wf l = true -> has_type v (TArray t) = true) /\
  (forall t kvs v, map_new t kvs = Some v <->
                   (Forall (fun kv => type_of (snd kv) = t) kvs /\ v = VMap t (map_of_pairs kvs))) /\
  (forall t kvs v, map_new t kvs = Some v <->
                   (Forall (fun kv => type_of (snd kv) = t) kvs /\
                    exists content, v = VMap t content /\ is_map_of kvs content)) /\
  (forall t kvs v, map_new t kvs = Some v -> forallb (fun kv => value_wf (snd kv)) kvs = true ->
                   has_type v (TMap t) = true).
Proof.
  exact (conj array_new_spec (conj map_new_spec (conj array_new_iff (conj array_new_wf
           (conj map_new_iff (conj map_new_declarative map_new_wf)))))).
Qed.

Theorem C08_execute_only_same_scheme : forall cf w c h,
  fst (step cf w (OExecute c h)) = w /\
  (snd (step cf w (OExecute c h)) = ObExecuted <->
     exists e, cur w c = Some e /\ nth_error (cf_idents cf) h = Some (ec_tok e)) /\
  (forall e tok, cur w c = Some e -> nth_error (cf_idents cf) h = Some tok -> tok <> ec_tok e ->
     snd (step cf w (OExecute c h)) = ObSchemeMismatch).
Proof.
  intros cf w c h. cbn [step].
  destruct (nth_error (cf_idents cf) h) as [tok|], (cur w c) as [e|]; cbn [fst snd].
  2-4: now repeat split; try discriminate; intros (e' & [=] & [=]).
  destruct (Nat.eqb_spec (ec_tok e) tok) as [<-|Ht]; cbn [fst snd]; repeat split; try discriminate.
  - now exists e.
  - now intros e' tok' [= <-] [= <-].
  - intros (e' & [= <-] & [= ->]). now destruct Ht.
Qed.

Definition ex_cf : config :=
  {| cf_fields := [ {| fd_name := [110%N]; fd_ty := TInt; fd_optional := true |};
                    {| fd_name := [97%N]; fd_ty := TArray (TArray TInt); fd_optional := true |} ];
     cf_idents := [0; 0; 1];
     cf_init := [Some 0; Some 2; None; None] |}.

(* an empty array tagged Array(Int) is accepted for the Array(Array(Int)) field,
   the same shape tagged Bytes is not; the guard's write is what the original
   shows after the drop; the clone keeps the old value; scheme B's field and
   filter are refused on a context of A (and of A's clone handle accepted). *)
Definition ex_ops : list op :=
  [ OSetByField 0 1 1 (VArray (TArray TInt) [VArray TInt []]);
    OSetByField 0 0 1 (VArray (TArray TBytes) []);
    OSetByField 0 2 0 (VInt 1);
    OCloneWith 0 2;
    OBorrowBegin 0; OSetByName 0 [110%N] (VInt 7); OBorrowEnd;
    OGet 0 0 0; OGet 2 0 0; OGet 2 0 1;
    OExecute 0 1; OExecute 0 2; OExecute 1 2; OClear 0; OGet 0 0 1; OTakeWith 2 3; OGet 2 0 0; OGet 3 1 1 ].

Example C08_refinement_premise_satisfiable : forallb op_wf ex_ops = true.
Proof. vm_compute. reflexivity. Qed.

Example C08_history_nontrivial :
  run ex_cf ex_ops =
  [ ObPrev None; ObErr TypeMismatch; ObErr SchemeMismatch; ObOk; ObOk; ObPrev None; ObOk;
    ObVal (Some (VInt 7)); ObVal None; ObVal (Some (VArray (TArray TInt) [VArray TInt []]));
    ObExecuted; ObSchemeMismatch; ObExecuted; ObOk; ObVal None; ObOk; ObNoCtx;
    ObVal (Some (VArray (TArray TInt) [VArray TInt []])) ].
Proof. vm_compute. reflexivity. Qed.

Example C08_set_premise_satisfiable :
  exists w1, step ex_cf (init ex_cf) (OSetByField 0 0 0 (VInt 3)) = (w1, ObPrev None).
Proof. eexists. vm_compute. reflexivity. Qed.

Example C08_clone_premise_satisfiable :
  exists w1, step ex_cf (init ex_cf) (OCloneWith 0 2) = (w1, ObOk) /\ 0 <> 2.
Proof. eexists. split; [vm_compute; reflexivity|discriminate]. Qed.

Example C08_guard_premises_satisfiable :
  exists w1 w2, step ex_cf (init ex_cf) (OBorrowBegin 0) = (w1, ObOk) /\ step ex_cf w1 OBorrowEnd = (w2, ObOk).
Proof. eexists. eexists. split; vm_compute; reflexivity. Qed.

Example C08_constructors_nontrivial :
  array_new TInt [VInt 1; VBytes [1%N]] = None /\
  array_new (TArray TInt) [VArray TInt []; VArray TBytes []] = None /\
  map_new TInt [([2%N], VInt 1); ([1%N], VInt 2); ([2%N], VInt 3)] = Some (VMap TInt [([1%N], VInt 2); ([2%N], VInt 3)]).
Proof. vm_compute. repeat split. Qed.

Check C08_ctx_refines_typed_map : forall (cf : config) (ops : list op),
  forallb op_wf ops = true -> run cf ops = a_run cf ops.
Check C08_ctx_inv_well_typed : forall cf ops,
  forallb op_wf ops = true ->
  forall c e, cur (fst (run_from cf (init cf) ops)) c = Some e ->
    length (ec_vals e) = length (cf_fields cf) /\
    forall f v, nth_error (ec_vals e) f = Some (Some v) ->
      exists fd, nth_error (cf_fields cf) f = Some fd /\ has_type v (fd_ty fd) = true.

Print Assumptions C08_ctx_refines_typed_map.
Print Assumptions C08_failed_set_changes_nothing.
Print Assumptions C08_set_returns_previous.
Print Assumptions C08_inv_reachable.
Print Assumptions C08_ctx_inv_well_typed.
Print Assumptions C08_visible_slots_ok.
Print Assumptions C08_clone_independent.
Print Assumptions C08_guard_writes_through.
Print Assumptions C08_containers_homogeneous.
Print Assumptions C08_execute_only_same_scheme.
