(* Termination of the parser model: the fuel handed to the recursive descent
   by parse_filter / parse_value (8 * length + 16) always suffices - the model
   never answers LFuel.  Every recursive call either works on a strictly
   shorter input or belongs to a chain of at most five calls on the same input
   (call arguments -> argument -> logical -> simple -> index expression). *)
From Coq Require Import List NArith Bool Lia.
From WF Require Import Base.Bytes Sem.Matchers Lang.Types Lang.Ast Sem.Compile Parse.Lex
     Parse.Parser Proofs.ParserProofs Proofs.LexFacts Proofs.LexBase Proofs.LexSafeProofs.
Import ListNotations.
Local Notation length := List.length (only parsing).
Local Open Scope N_scope.

Definition nf {A} (r : lres A) : Prop := r <> LFuel.

Lemma safe_nf {A} (r : lres A) : safe r -> nf r.
Proof. intros [_ H]. exact H. Qed.

Lemma nf_err {A} k s n : nf (@LErr A k s n). Proof. discriminate. Qed.
Lemma nf_ok {A} (a : A) rest : nf (LOk a rest). Proof. discriminate. Qed.

(* [r] is not LFuel and, when it accepts, it leaves fewer than [n] bytes: the
   two facts the fuel count needs of every call, kept together so that one
   pass over a function body gives both *)
Definition fin {A} (n : nat) (r : lres A) : Prop :=
  match r with LOk _ rest => (length rest < n)%nat | LFuel => False | _ => True end.

Lemma fin_nf {A} n (r : lres A) : fin n r -> nf r.
Proof. intros H ->. exact H. Qed.

Lemma fin_mono {A} n m (r : lres A) : fin n r -> (n <= m)%nat -> fin m r.
Proof. destruct r; cbn; auto. lia. Qed.

Lemma fin_bind {A B} n m (r : lres A) (k : A -> bytes -> lres B) :
  fin n r -> (forall a rest, (length rest < n)%nat -> fin m (k a rest)) -> fin m (lbind r k).
Proof. destruct r; cbn; auto. Qed.

(* the same, with what the span postcondition says of an accepted [r] *)
Lemma fin_bind_post {A B} w (P : A -> Prop) n m (r : lres A) (k : A -> bytes -> lres B) :
  fin n r -> lpost w P r ->
  (forall a rest, P a -> suffix rest w -> (length rest < n)%nat -> fin m (k a rest)) -> fin m (lbind r k).
Proof. destruct r; cbn; auto. intros L [HP Hs] Hk. auto. Qed.

Lemma fin_map {A B} (f : A -> B) n (r : lres A) : fin n r -> fin n (lmap f r).
Proof. destruct r; cbn; auto. Qed.

Lemma fin_bind_nf {A B} n (r : lres A) (k : A -> bytes -> lres B) :
  fin n r -> (forall a rest, (length rest < n)%nat -> nf (k a rest)) -> nf (lbind r k).
Proof. destruct r; cbn; intros H Hk; try discriminate; [now apply Hk|contradiction]. Qed.

Lemma nf_bind {A B} (r : lres A) (k : A -> bytes -> lres B) :
  nf r -> (forall a rest, nf (k a rest)) -> nf (lbind r k).
Proof. destruct r; cbn; intros H Hk; try discriminate; [apply Hk|contradiction]. Qed.

Lemma fin_of_post {A} i (P : A -> Prop) (r : lres A) : nf r -> lpost i P r -> fin (S (length i)) r.
Proof. destruct r; cbn; auto. intros _ [_ H]. apply suffix_length in H. lia. Qed.

Lemma starts_with_length p s r : starts_with p s = Some r -> length s = (length p + length r)%nat.
Proof. intros H. apply starts_with_inv in H. subst. now rewrite app_length. Qed.

Lemma skip_space_le s : (length (skip_space s) <= length s)%nat.
Proof. apply suffix_length, skip_space_suffix. Qed.

Lemma expect_fin b i : fin (length i) (expect [b] i).
Proof. unfold expect. destruct (starts_with [b] i) eqn:E; [|exact I]. apply starts_with_length in E. cbn in *. lia. Qed.

(* LexFacts goes through each lexer once; this is what [ldone] says of the fuel and of the rest *)
Lemma fin_of_done {A} (ok : Prop) n w (P : A -> Prop) r : ldone ok n w P r -> ok -> fin n r.
Proof.
  intros H Hok. pose proof (safe_nf _ (ldone_safe H Hok)) as Hn.
  destruct r; cbn; auto. exact (ldone_shorter H eq_refl).
Qed.

Lemma lex_int_fin i : fin (length i) (lex_int i).
Proof. exact (fin_of_done _ _ _ _ _ (lex_int_done i) I). Qed.

Lemma lex_ip_fin i : fin (length i) (lex_ip i).
Proof. exact (fin_of_done _ _ _ _ _ (lex_ip_done i) I). Qed.

Lemma lex_ip_range_fin i : fin (length i) (lex_ip_range i).
Proof. exact (fin_of_done _ _ _ _ _ (lex_ip_range_done i) I). Qed.

Lemma lex_int_range_fin i : fin (length i) (lex_int_range i).
Proof. exact (fin_of_done _ _ _ _ _ (lex_int_range_done i) I). Qed.

Lemma lex_bytes_fin i : fin (length i) (lex_bytes i).
Proof. exact (fin_of_done _ _ _ _ _ (lex_bytes_done i) I). Qed.

Lemma lex_ident_name_fin i : fin (length i) (lex_ident_name i).
Proof. exact (fin_of_done _ _ _ _ _ (lex_ident_name_done i) I). Qed.

Lemma lex_field_index_fin i : fin (length i) (lex_field_index i).
Proof. exact (fin_of_done _ _ _ _ _ (lex_field_index_done i) I). Qed.

(* the loops of Parse/Parser.v that run on fuel of their own *)
Lemma brace_items_nf {A} (lex1 : bytes -> lres A) :
  (forall i, fin (length i) (lex1 i)) ->
  forall fuel input acc, (length input < fuel)%nat -> nf (brace_items fuel lex1 input acc).
Proof.
  intros H1. induction fuel as [|f IH]; intros input acc Hf; [lia|]. cbn [brace_items].
  destruct (starts_with [125] (skip_space input)); [discriminate|].
  eapply fin_bind_nf; [apply H1|]. intros x rest L. pose proof (skip_space_le input). apply IH. lia.
Qed.

Lemma brace_list_nf {A} (lex1 : bytes -> lres A) input :
  (forall i, fin (length i) (lex1 i)) -> nf (lex_brace_list lex1 input).
Proof.
  intros H1. unfold lex_brace_list. eapply fin_bind_nf; [apply expect_fin|].
  intros _ rest L. apply brace_items_nf; [exact H1|lia].
Qed.

Lemma lex_indexes_fin sch st fuel : forall input t acc, (length input < fuel)%nat ->
  fin (S (length input)) (lex_indexes sch st fuel input t acc).
Proof.
  induction fuel as [|f IH]; intros input t acc Hf; [lia|]. cbn [lex_indexes].
  destruct (starts_with [91] input) as [rest|] eqn:E; [|cbn; lia].
  apply starts_with_length in E. cbn in E. pose proof (skip_space_le rest) as L0.
  eapply fin_bind; [apply lex_field_index_fin|].
  intros idx rest1 L1. pose proof (skip_space_le rest1) as L2.
  eapply fin_bind; [apply expect_fin|]. intros _ rest2 L3.
  destruct (index_step t idx); [|exact I]. eapply fin_mono; [apply IH|]; lia.
Qed.

Lemma lex_regex_nf i : nf (lex_regex i).
Proof.
  destruct i as [|b r]; [discriminate|].
  destruct (N.eq_dec b 34) as [->|N34]; [unfold lex_regex|].
  { destruct (regex_scan_go r false) as [[pat rest]|]; [|discriminate]. destruct (regex_compile pat); discriminate. }
  destruct (N.eq_dec b 114) as [->|N114]; [unfold lex_regex|].
  { apply nf_bind; [apply safe_nf, lex_raw_safe|]. intros p rest. destruct (regex_compile (fst p)); discriminate. }
  now rewrite lex_regex_other.
Qed.

Lemma lex_wildcard_nf st i : nf (lex_wildcard st i).
Proof.
  unfold lex_wildcard. apply nf_bind; [apply safe_nf, lex_quoted_or_raw_safe|].
  intros p rest. destruct (wildcard_compile (st_star_limit st) (fst p)); discriminate.
Qed.

Lemma lex_rhs_nf t i : nf (lex_rhs t i).
Proof.
  unfold lex_rhs. destruct t; try discriminate; eapply fin_nf, fin_map.
  - apply lex_bytes_fin.
  - apply lex_int_fin.
  - apply lex_ip_fin.
Qed.

Lemma lex_alts_strict {A} (alts : list (bytes * A)) :
  Forall (fun p => fst p <> []) alts ->
  forall i a r, lex_alts alts i = Some (a, r) -> (length r < length i)%nat.
Proof.
  induction 1 as [|[t x] alts Ht _ IH]; intros i a r H; cbn in H; [discriminate|].
  destruct (starts_with t i) eqn:E.
  - injection H as <- <-. apply starts_with_length in E. cbn in Ht. destruct t; [contradiction|]. cbn in E. lia.
  - eauto.
Qed.

Lemma combining_strict i op : fst (lex_combining_op i) = Some op -> (length (snd (lex_combining_op i)) < length i)%nat.
Proof.
  unfold lex_combining_op. destruct (lex_alts logical_ops (skip_space i)) as [[o r]|] eqn:E; cbn; [|discriminate].
  intros _. apply lex_alts_strict in E; [|repeat constructor; discriminate].
  pose proof (skip_space_le i). pose proof (skip_space_le r). lia.
Qed.

Lemma quant_arg_fin sch q i a r2 : fin (S (length r2)) (quant_arg sch q i a r2).
Proof.
  assert (Hdone : forall e : lexpr,
            fin (S (length r2)) (lbind (expect [41] (skip_space r2)) (fun _ rest3 => LOk e rest3))).
  { intros e. eapply fin_bind; [apply expect_fin|]. intros _ rest3 L. pose proof (skip_space_le r2). cbn. lia. }
  unfold quant_arg. destruct a as [ie|r|le]; [|exact I|].
  - destruct (Nat.ltb 0 _); [exact I|]. destruct (ty_iexpr sch ie) as [[| | | |[]|]|]; first [exact I|apply Hdone].
  - destruct (ty_lexpr sch le) as [[| | | |[]|]|]; first [exact I|apply Hdone].
Qed.

Lemma arg_literal_fin input : fin (length input) (arg_literal input).
Proof.
  unfold arg_literal.
  pose proof (lex_ip_fin input) as H1. destruct (lex_ip input); cbn [fin] in *; auto.
  pose proof (lex_int_fin input) as H2. destruct (lex_int input); cbn [fin] in *; auto.
  pose proof (lex_bytes_fin input) as H3. destruct (lex_bytes input); cbn [fin] in *; auto.
Qed.

Section Fuel.
Variable sch : scheme.
Variable st : settings.
Local Notation maxd := (st_max_depth st).
Local Notation PP := (fun w f => parser_post sch st w lexers_ok f).

Local Hint Resolve safe_nf lex_list_name_safe lex_int_safe lex_bytes_safe lex_rhs_nf lex_regex_nf lex_wildcard_nf
  brace_list_nf lex_int_range_fin lex_ip_range_fin lex_bytes_fin : nf.

(* by operator and type: every literal lexer answers, what follows it is an immediate result *)
Lemma cmp_rhs_nf lhs lt input : nf (cmp_rhs sch st lhs lt input).
Proof.
  unfold cmp_rhs. destruct (lex_alts comparison_ops (skip_space input)) as [[op after]|]; [|discriminate].
  destruct op, lt; cbn [negb]; try discriminate; try destruct (starts_with [36] _);
    (apply nf_bind; [auto with nf|intros; try destruct (list_index sch _); discriminate]).
Qed.

Lemma with_lhs_nf f d input lhs : nf (lex_with_lhs sch st (S f) d input lhs).
Proof.
  destruct (lex_with_lhs_cases sch st f d input lhs) as [->|[->|[->|(lt & _ & ->)]]]; try discriminate.
  apply cmp_rhs_nf.
Qed.

Lemma with_lhs_fin f d input lhs : okI sch st d lhs ->
  fin (S (length input)) (lex_with_lhs sch st (S f) d input lhs).
Proof.
  intros Hl. eapply fin_of_post; [apply with_lhs_nf|].
  apply (step_with_lhs sch st input lexers_ok); [exact Hl|apply suffix_refl].
Qed.

(* the constants order the functions along the chain of calls on the same input: call arguments 6,
   argument 5, logical and its two loops 4, simple 3, index expression 2; a call on a shorter input
   has 8 units to spare *)
Record FIN (f : nat) : Prop := {
  fin_logical : forall d input, (d <= maxd)%N -> (8 * length input + 4 <= f)%nat ->
      fin (length input) (lex_logical sch st f d input);
  fin_more : forall d lhs minp la, (d <= maxd)%N -> okL sch st d lhs -> (8 * length (snd la) + 4 <= f)%nat ->
      fin (S (length (snd la))) (lex_more sch st f d lhs minp la);
  fin_inner : forall d rhs rest op, (d <= maxd)%N -> okL sch st d rhs -> (8 * length rest + 4 <= f)%nat ->
      fin (S (length rest)) (lex_inner sch st f d rhs rest op);
  fin_simple : forall d input, (d <= maxd)%N -> (8 * length input + 3 <= f)%nat ->
      fin (length input) (lex_simple sch st f d input);
  fin_index : forall d input, (d <= maxd)%N -> (8 * length input + 2 <= f)%nat ->
      fin (length input) (lex_index_expr sch st f d input);
  fin_call : forall d input fn, (d <= maxd)%N -> (8 * length input + 2 <= f)%nat ->
      fin (S (length input)) (lex_call sch st f d input fn);
  fin_call_args : forall d input def acc, (d <= maxd)%N -> (8 * length input + 6 <= f)%nat ->
      fin (S (length input)) (lex_call_args sch st f d input def acc);
  fin_arg : forall d input, (d <= maxd)%N -> (8 * length input + 5 <= f)%nat ->
      fin (length input) (lex_arg sch st f d input);
}.

(* lia takes [length] at [bytes] and at [list N] for different terms *)
Ltac blia := unfold bytes in *; lia.

Lemma increase_fin d at_ n {B} (k : N -> bytes -> lres B) :
  ((d < maxd)%N -> fin n (k (d + 1)%N [])) -> fin n (lbind (increase st d at_) k).
Proof. intros H. destruct (increase_cases st d at_) as [[_ ->]|[Hlt ->]]; cbn [lbind]; [exact I|auto]. Qed.

Lemma FIN_S f : FIN f -> FIN (S f).
Proof.
  intros H. constructor.
  - (* logical *)
    intros d input Hd Hf. cbn [lex_logical].
    eapply fin_bind_post; [apply (fin_simple f H); [assumption|blia]
                          |apply (ih_simple sch st input f (PP input f)); [assumption|apply suffix_refl]|].
    intros lhs rest Hl _ L0. pose proof (suffix_length _ _ (combining_suffix rest)).
    eapply fin_mono; [apply (fin_more f H); [assumption|assumption|blia]|blia].
  - (* more *)
    intros d lhs minp [o lrest] Hd Hl Hf. cbn [lex_more fst snd] in *. destruct o as [op|]; [|cbn; lia].
    eapply fin_bind_post; [apply (fin_simple f H); [assumption|blia]
                          |apply (ih_simple sch st lrest f (PP lrest f)); [assumption|apply suffix_refl]|].
    intros rhs rhs_rest Hrhs _ L0.
    eapply fin_bind_post; [apply (fin_inner f H d rhs rhs_rest op); [assumption|assumption|blia]
                          |apply (ih_inner sch st rhs_rest f (PP rhs_rest f)); [assumption|assumption|apply suffix_refl]|].
    intros [rhs' la'] rr' [Hrhs' Sla'] Srr' _. cbn [fst snd] in *. apply suffix_length in Sla', Srr'.
    destruct (ty_lexpr sch lhs) as [tl|] eqn:Etl; [|exact I].
    destruct (ty_lexpr sch rhs') as [tr|] eqn:Etr; [|exact I].
    destruct (types_combinable tl tr) eqn:Ec; [|exact I].
    eapply fin_mono; [apply (fin_more f H); [assumption|eapply okL_combine; eauto|]|];
      destruct (Nat.ltb _ _); cbn [snd]; blia.
  - (* inner *)
    intros d rhs rest op Hd Hrhs Hf. cbn [lex_inner]. cbv zeta.
    destruct (Nat.leb _ _) eqn:El; [cbn; lia|].
    assert (Ls : (length (snd (lex_combining_op rest)) < length rest)%nat).
    { destruct (fst (lex_combining_op rest)) as [o|] eqn:Eo; [eapply combining_strict; eauto|discriminate El]. }
    eapply fin_bind_post; [apply (fin_more f H d rhs (fst (lex_combining_op rest)) (lex_combining_op rest)); [assumption|assumption|blia]
                          |apply (ih_more sch st _ f (PP (snd (lex_combining_op rest)) f)); [assumption|assumption|apply suffix_refl]|].
    intros rhs' rest' Hrhs' Sr _. apply suffix_length in Sr.
    eapply fin_mono; [apply (fin_inner f H); [assumption|assumption|blia]|blia].
  - (* simple *)
    intros d input Hd Hf. rewrite lex_simple_S.
    destruct (starts_with [40] input) as [r0|] eqn:E1.
    { apply starts_with_length in E1. cbn in E1. pose proof (skip_space_le r0). apply increase_fin. intros Hlt.
      eapply fin_bind; [apply (fin_logical f H); [lia|blia]|]. intros e rest1 L1. pose proof (skip_space_le rest1).
      eapply fin_bind; [apply expect_fin|]. intros _ rest2 L2. cbn. lia. }
    destruct (lex_alts unary_ops input) as [[u r0]|] eqn:E2.
    { apply lex_alts_strict in E2; [|repeat constructor; discriminate]. pose proof (skip_space_le r0).
      apply increase_fin. intros Hlt.
      eapply fin_bind; [apply (fin_simple f H); [lia|blia]|]. intros e rest1 L1. cbn. lia. }
    destruct (lex_quant_call input) as [[q r0]|] eqn:E3.
    { apply quant_call_alts, lex_alts_strict in E3; [|repeat constructor; discriminate]. pose proof (skip_space_le r0). apply increase_fin. intros Hlt.
      eapply fin_bind; [apply expect_fin|]. intros _ rest1 L1. pose proof (skip_space_le rest1).
      eapply fin_bind; [apply (fin_arg f H (d + 1)%N); [lia|blia]|]. intros a rest2 L2.
      eapply fin_mono; [apply quant_arg_fin|lia]. }
    eapply fin_bind_post; [apply (fin_index f H); [assumption|blia]
                          |apply (ih_index sch st input f (PP input f)); [assumption|apply suffix_refl]|].
    intros lhs rest Hl _ L0. destruct f as [|f']; [lia|]. eapply fin_mono; [now apply with_lhs_fin|lia].
  - (* index expression *)
    intros d input Hd Hf. cbn [lex_index_expr].
    eapply fin_bind; [apply lex_ident_name_fin|]. intros name rest0 L0.
    destruct (scheme_get sch name) as [[i|i]|]; [| |exact I].
    + destruct (field_ty sch i); [|exact I]. apply fin_map. eapply fin_mono; [apply lex_indexes_fin|]; blia.
    + apply increase_fin. intros Hlt.
      eapply fin_bind; [apply (fin_call f H (d + 1)%N rest0 i); [lia|blia]|]. intros a rest1 L1.
      destruct (ty_call sch i a); [|exact I]. apply fin_map. eapply fin_mono; [apply lex_indexes_fin|]; blia.
  - (* call *)
    intros d input fn Hd Hf. cbn [lex_call]. destruct (fn_of sch fn) as [def|]; [|exact I].
    pose proof (skip_space_le input). eapply fin_bind; [apply expect_fin|]. intros _ rest L. pose proof (skip_space_le rest).
    apply fin_map. eapply fin_mono; [apply (fin_call_args f H); [assumption|blia]|blia].
  - (* call arguments *)
    intros d input def acc Hd Hf. destruct (lex_call_args_S input) as [E|E]; rewrite E.
    + unfold call_args_finish. destruct (Nat.ltb _ _); [exact I|].
      eapply fin_bind; [apply expect_fin|]. intros _ rest L. cbn. lia.
    + unfold call_args_next.
      apply fin_bind with (n := S (length input)).
      { destruct (Nat.eqb _ 0); [cbn; lia|]. eapply fin_mono; [apply expect_fin|lia]. }
      intros _ input1 L1. pose proof (skip_space_le input1).
      eapply fin_bind; [apply (fin_arg f H d (skip_space input1)); [assumption|blia]|]. intros a rest L2.
      pose proof (skip_space_le rest). unfold call_args_push.
      destruct (_ && _); [exact I|]. destruct (_ && _); [exact I|]. destruct (ty_arg sch a) as [t|]; [|exact I].
      destruct (check_param sch def acc a t); try exact I.
      eapply fin_mono; [apply (fin_call_args f H); [assumption|blia]|blia].
  - (* argument *)
    intros d input Hd Hf. destruct (lex_arg_S input) as [E|[E|E]]; rewrite E.
    + apply fin_map, lex_bytes_fin.
    + apply fin_map, (fin_logical f H); [assumption|blia].
    + unfold arg_index_or_cmp. pose proof (fin_index f H d input Hd ltac:(blia)) as Hi.
      pose proof (ih_index sch st input f (PP input f) d input Hd (suffix_refl _)) as Pi.
      destruct (lex_index_expr sch st f d input) as [lhs rest0|k aa n| |]; cbn [fin lpost] in Hi, Pi |- *;
        [| |exact I|contradiction].
      * destruct (lex_alts comparison_ops (skip_space rest0)); [|exact Hi].
        apply fin_map. destruct f as [|f']; [lia|]. eapply fin_mono; [apply with_lhs_fin, Pi|lia].
      * destruct (let '(c1, c2, c3) := first_chars input in _); [exact I|apply arg_literal_fin].
Qed.

Lemma parser_fin f : FIN f.
Proof. induction f as [|f IH]; [constructor; intros; lia|now apply FIN_S]. Qed.

Record NF (f : nat) : Prop := {
  nf_logical : forall d input, (d <= maxd)%N -> (8 * length input + 4 <= f)%nat ->
      nf (lex_logical sch st f d input);
  nf_more : forall d lhs minp la, (d <= maxd)%N -> okL sch st d lhs -> (8 * length (snd la) + 4 <= f)%nat ->
      nf (lex_more sch st f d lhs minp la);
  nf_inner : forall d rhs rest op, (d <= maxd)%N -> okL sch st d rhs -> (8 * length rest + 4 <= f)%nat ->
      nf (lex_inner sch st f d rhs rest op);
  nf_simple : forall d input, (d <= maxd)%N -> (8 * length input + 3 <= f)%nat ->
      nf (lex_simple sch st f d input);
  nf_index : forall d input, (d <= maxd)%N -> (8 * length input + 2 <= f)%nat ->
      nf (lex_index_expr sch st f d input);
  nf_call : forall d input fn, (d <= maxd)%N -> (8 * length input + 2 <= f)%nat ->
      nf (lex_call sch st f d input fn);
  nf_call_args : forall d input def acc, (d <= maxd)%N -> (8 * length input + 6 <= f)%nat ->
      nf (lex_call_args sch st f d input def acc);
  nf_arg : forall d input, (d <= maxd)%N -> (8 * length input + 5 <= f)%nat ->
      nf (lex_arg sch st f d input);
}.

Theorem parser_fuel f : NF f.
Proof. destruct (parser_fin f). constructor; intros; eapply fin_nf; eauto. Qed.

End Fuel.

Lemma complete_nf {A} (r : lres A) : nf r -> nf (complete r).
Proof. destruct r as [a [|b rest]|k s n| |]; cbn; intros H; try discriminate; exact H. Qed.

Theorem parse_filter_terminates sch st text : parse_filter sch st text <> LFuel.
Proof.
  unfold parse_filter. apply complete_nf. apply nf_bind.
  - apply (nf_logical sch st _ (parser_fuel sch st _)); lia.
  - intros e rest. destruct (ty_lexpr sch e) as [[]|]; discriminate.
Qed.

Theorem parse_value_terminates sch st text : parse_value sch st text <> LFuel.
Proof.
  unfold parse_value. apply complete_nf. apply nf_bind.
  - apply (nf_index sch st _ (parser_fuel sch st _)); lia.
  - intros e rest. destruct (Nat.ltb _ _); discriminate.
Qed.
