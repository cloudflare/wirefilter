(* The parser model's precedence-climbing functions ([lex_more] / [lex_inner] of Parse/Parser.v, the
   mirror of LogicalExpr::lex_more_with_precedence) refine the relational loop [More] / [Inner] of
   Parse/Climb.v: on a text that reads as a chain  s1 op1 s2 op2 ...  of simple expressions they
   return what the relations return.  With [Climb.climb_is_stratified] this gives the stratified tree
   (and > xor > or, same-operator runs flattened) for whole texts: [logical_chain_parses].

   Fuel: every statement has the form "the answer is LFuel or the expected LOk" ([okf]); the closed
   theorems of GrammarProofs use FuelProofs.parse_filter_terminates to exclude LFuel. *)
From Coq Require Import List NArith.
From WF Require Import Base.Bytes Lang.Types Lang.Ast Parse.Lex Sem.Compile Parse.Parser Parse.Climb Spec.Grammar.
Import ListNotations.
Local Notation length := List.length (only parsing).

Definition okf {A} (r : lres A) (a : A) (rest : bytes) : Prop := r = LFuel \/ r = LOk a rest.

Lemma okf_bind {A B} (r : lres A) a rest (k : A -> bytes -> lres B) b rest' :
  okf r a rest -> okf (k a rest) b rest' -> okf (lbind r k) b rest'.
Proof. intros [->| ->] H; cbn [lbind]; [now left|exact H]. Qed.

Definition cvo (o : option op) : option logop := option_map cv o.

Lemma interp_comb o items : interp (Comb o items) = ECombining (cv o) (lexprs_of_list (map interp items)).
Proof. cbn [interp]. f_equal. induction items as [|x r IH]; cbn [map lexprs_of_list]; [reflexivity|now rewrite IH]. Qed.

Lemma lexprs_to_of_list l : lexprs_to_list (lexprs_of_list l) = l.
Proof. induction l as [|x r IH]; cbn; [reflexivity|now rewrite IH]. Qed.

Definition not_combining (a : lexpr) : Prop := match a with ECombining _ _ => False | _ => True end.
Definition top_nc (e : @expr lexpr) : Prop := match e with Atom a => not_combining a | Comb _ _ => True end.

Lemma same_logop_cv a b : same_logop (cv a) (cv b) = op_eqb a b.
Proof. destruct a, b; reflexivity. Qed.

Lemma combine_interp lhs o rhs : top_nc lhs ->
  Parser.combine (interp lhs) (cv o) (interp rhs) = interp (Climb.combine lhs o rhs).
Proof.
  intros Hn. destruct lhs as [a|o' items].
  - cbn [Climb.combine]. rewrite interp_comb. cbn [map lexprs_of_list interp].
    destruct a; cbn in Hn; try contradiction; reflexivity.
  - cbn [Climb.combine]. rewrite interp_comb. cbn [Parser.combine]. rewrite same_logop_cv.
    destruct (op_eqb o' o).
    + rewrite interp_comb, lexprs_to_of_list, map_app. reflexivity.
    + rewrite !interp_comb. cbn [map lexprs_of_list]. rewrite ?interp_comb. reflexivity.
Qed.

Lemma lvl_lt a b : Nat.ltb (Parser.lvl (cvo a)) (Parser.lvl (cvo b)) = olt a b.
Proof. destruct a as [[]|], b as [[]|]; reflexivity. Qed.
Lemma lvl_le a o : Nat.leb (Parser.lvl (cvo a)) (Parser.lvl (Some (cv o))) = ole a (Some o).
Proof. destruct a as [[]|], o; reflexivity. Qed.

Section Sim.
Variables (sch : scheme) (st : settings) (d : N).
(* the class of types the chain lives in: plain booleans, or boolean arrays *)
Variable cls : ty -> bool.
Hypothesis cls_combinable : forall a b, cls a = true -> cls b = true -> types_combinable a b = true.

Definition wt (e : @expr lexpr) : Prop := exists t, ty_lexpr sch (interp e) = Some t /\ cls t = true.

Lemma wt_combine lhs o rhs : wt lhs -> wt (Climb.combine lhs o rhs).
Proof.
  intros (t & Ht & Hc). exists t. split; [|exact Hc].
  destruct lhs as [a|o' items]; cbn [Climb.combine].
  - rewrite interp_comb. cbn [map lexprs_of_list ty_lexpr]. exact Ht.
  - rewrite interp_comb in Ht. destruct items as [|x r]; [discriminate Ht|].
    destruct (op_eqb o' o); rewrite interp_comb.
    + cbn [app map lexprs_of_list ty_lexpr] in Ht |- *. exact Ht.
    + cbn [map lexprs_of_list ty_lexpr]. rewrite interp_comb. cbn [map lexprs_of_list ty_lexpr]. exact Ht.
Qed.

(* [t] is the text right after a simple expression; it reads as the chain [c] and ends at [tend] *)
Fixpoint ChainRep (c : @chain lexpr) (t tend : bytes) : Prop :=
  match c with
  | [] => t = tend /\ lex_combining_op tend = (None, tend)
  | (o, s) :: tl =>
      exists t1 t2,
        lex_combining_op t = (Some (cv o), t1) /\
        (forall f, okf (lex_simple sch st f d t1) (interp s) t2) /\
        top_nc s /\ wt s /\ ChainRep tl t2 tend
  end.

Lemma chain_hd c t tend : ChainRep c t tend -> fst (lex_combining_op t) = cvo (hd_op c).
Proof.
  destruct c as [|[o s] tl]; cbn [ChainRep hd_op].
  - intros [-> H]. now rewrite H.
  - intros (t1 & t2 & H & _). now rewrite H.
Qed.

Definition P_more (lhs : @expr lexpr) (minp : option op) (c : chain) (res : expr * chain) : Prop :=
  forall t tend, ChainRep c t tend -> top_nc lhs -> wt lhs ->
  exists t', ChainRep (snd res) t' tend /\ top_nc (fst res) /\ wt (fst res) /\
    forall f, okf (lex_more sch st f d (interp lhs) (cvo minp) (lex_combining_op t)) (interp (fst res)) t'.

Definition P_inner (rhs : @expr lexpr) (o : op) (c : chain) (res : expr * chain) : Prop :=
  forall t tend, ChainRep c t tend -> top_nc rhs -> wt rhs ->
  exists t', ChainRep (snd res) t' tend /\ top_nc (fst res) /\ wt (fst res) /\
    forall f, okf (lex_inner sch st f d (interp rhs) t (cv o)) (interp (fst res), lex_combining_op t') t'.

Scheme More_mind := Minimality for More Sort Prop
  with Inner_mind := Minimality for Inner Sort Prop.
Combined Scheme more_inner_ind from More_mind, Inner_mind.

Lemma top_nc_combine (lhs : @expr lexpr) o rhs : top_nc (Climb.combine lhs o rhs).
Proof. destruct lhs as [a|o' items]; cbn [Climb.combine]; [exact I|destruct (op_eqb o' o); exact I]. Qed.

(* one iteration of lex_more up to the recursive call *)
Lemma more_step lhs minp o s tl t tend rhs tl' :
  ChainRep ((o, s) :: tl) t tend -> top_nc lhs -> wt lhs ->
  P_inner s o tl (rhs, tl') ->
  exists t', ChainRep tl' t' tend /\ top_nc rhs /\ wt rhs /\
    forall f e t'',
      okf (lex_more sch st f d (interp (Climb.combine lhs o rhs)) (cvo minp)
             (if olt (hd_op tl') minp then (None, t') else lex_combining_op t')) e t'' ->
      okf (lex_more sch st (S f) d (interp lhs) (cvo minp) (lex_combining_op t)) e t''.
Proof.
  intros HC Hn Hw HI. cbn [ChainRep] in HC. destruct HC as (t1 & t2 & Hla & Hs & Hns & Hws & HC).
  destruct (HI t2 tend HC Hns Hws) as (t' & HC' & Hn' & Hw' & Hin). cbn [fst snd] in *.
  exists t'. repeat split; try assumption.
  intros f e t'' Hk. cbn [lex_more]. rewrite Hla. cbn [fst snd].
  destruct (Hs f) as [-> | ->]; cbn [lbind]; [now left|].
  destruct (Hin f) as [-> | ->]; [now left|].
  destruct Hw as (tl0 & -> & Hcl). destruct Hw' as (tr0 & -> & Hcr).
  rewrite (cls_combinable _ _ Hcl Hcr), combine_interp by assumption. cbn [fst snd].
  now rewrite (chain_hd _ _ _ HC'), lvl_lt.
Qed.

Theorem climb_sim :
  (forall lhs minp c res, More lhs minp c res -> P_more lhs minp c res) /\
  (forall rhs o c res, Inner rhs o c res -> P_inner rhs o c res).
Proof.
  apply more_inner_ind.
  - (* M_nil *)
    intros lhs minp t tend [-> Hend] Hn Hw. exists tend. cbn [fst snd ChainRep]. repeat split; try assumption.
    intros [|f]; [now left|]. right. cbn [lex_more]. rewrite Hend. reflexivity.
  - (* M_stop *)
    intros lhs minp o s tl rhs tl' _ IHi Holt t tend HC Hn Hw.
    destruct (more_step lhs minp o s tl t tend rhs tl' HC Hn Hw IHi) as (t' & HC' & Hn' & Hw' & Hstep).
    exists t'. cbn [fst snd]. repeat split; [exact HC'|apply top_nc_combine|now apply wt_combine|].
    intros [|f]; [now left|]. apply Hstep. rewrite Holt. destruct f as [|f]; [now left|now right].
  - (* M_cont *)
    intros lhs minp o s tl rhs tl' r _ IHi Holt _ IHm t tend HC Hn Hw.
    destruct (more_step lhs minp o s tl t tend rhs tl' HC Hn Hw IHi) as (t' & HC' & Hn' & Hw' & Hstep).
    destruct (IHm t' tend HC' (top_nc_combine _ _ _) (wt_combine _ o rhs Hw)) as (t'' & HC'' & Hn'' & Hw'' & Hm).
    exists t''. repeat split; try assumption.
    intros [|f]; [now left|]. apply Hstep. rewrite Holt. apply Hm.
  - (* I_break *)
    intros rhs o tl Hole t tend HC Hn Hw. exists t. cbn [fst snd]. repeat split; try assumption.
    intros [|f]; [now left|]. right. cbn [lex_inner]. rewrite (chain_hd _ _ _ HC), lvl_le, Hole. reflexivity.
  - (* I_rec *)
    intros rhs o tl rhs' tl' r Hole _ IHm _ IHi t tend HC Hn Hw.
    destruct (IHm t tend HC Hn Hw) as (t' & HC' & Hn' & Hw' & Hm). cbn [fst snd] in *.
    destruct (IHi t' tend HC' Hn' Hw') as (t'' & HC'' & Hn'' & Hw'' & Hi).
    exists t''. repeat split; try assumption.
    intros [|f]; [now left|]. cbn [lex_inner]. rewrite (chain_hd _ _ _ HC), lvl_le, Hole.
    destruct (Hm f) as [-> | ->]; [now left|apply Hi].
Qed.

(* whole logical expressions: the first simple expression, then the chain *)
Theorem logical_chain_parses (x : @orl lexpr) t0 t tend :
  simple_orl x ->
  (forall f, okf (lex_simple sch st f d t0) (interp (first_or x)) t) ->
  top_nc (first_or x) -> wt (first_or x) ->
  ChainRep (rest_or x) t tend ->
  (forall f, okf (lex_logical sch st f d t0) (interp (build_or x)) tend) /\
  lex_combining_op tend = (None, tend) /\ wt (build_or x).
Proof.
  intros Hx Hs Hn Hw HC.
  destruct (proj1 climb_sim _ _ _ _ (climb_is_stratified x Hx) t tend HC Hn Hw) as (t' & HC' & _ & Hw' & Hm).
  cbn [fst snd ChainRep] in *. destruct HC' as [-> Hend]. repeat split; try assumption.
  intros [|f]; [now left|]. cbn [lex_logical].
  eapply okf_bind; [apply Hs|]. apply (Hm f).
Qed.

End Sim.
