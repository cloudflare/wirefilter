(* Proofs for C08.  What each kind of step of the context API (Sem/CtxApi.v)
   does to the contexts a program can name ([put_effect], [tab_write_effect],
   [push_guard_effect], [pop_guard_effect]); from these, over every operation
   sequence: the invariant and the typing of stored values ([step_next],
   [typed_run]), the frame property of untouched slots ([run_frame]) and the
   refinement of the abstract typed map of Spec/C08.v ([sim_run]).  Then the
   checked container constructors against their specification. *)
From Coq Require Import List Bool Arith Lia.
From WF Require Import Base.Bytes Lang.Types Lang.Context Spec.Typing Sem.TypeCodec Sem.CtxApi Spec.C08
     Proofs.ListFacts Proofs.ByteKeys.
Import ListNotations.
Local Open Scope nat_scope.

Lemma bytes_eqb_compare_gt k k' : bytes_compare k k' = Gt -> bytes_eqb k k' = false.
Proof. intros Hc. rewrite bytes_eqb_sym. now apply bytes_compare_lt_neq, bytes_compare_gt_lt. Qed.

Lemma set_nth_length {A} (l : list A) : forall n x, length (set_nth l n x) = length l.
Proof. induction l as [|y l IH]; intros [|n] x; cbn; auto. Qed.

Lemma nth_error_set_nth {A} (l : list A) : forall n m x,
  nth_error (set_nth l n x) m = if Nat.eqb m n then option_map (fun _ => x) (nth_error l n) else nth_error l m.
Proof.
  induction l as [|y l IH]; intros [|n] [|m] x; cbn; try reflexivity; [now destruct (Nat.eqb m n), n|apply IH].
Qed.

Lemma slot_some_lt tab c e : slot tab c = Some e -> c < length tab.
Proof.
  unfold slot. intros H. apply nth_error_Some. now destruct (nth_error tab c).
Qed.

Lemma slot_set_nth tab c c' x : c < length tab -> slot (set_nth tab c x) c' = if Nat.eqb c' c then x else slot tab c'.
Proof.
  intros H. unfold slot. rewrite nth_error_set_nth. destruct (Nat.eqb c' c); [|reflexivity].
  apply nth_error_Some in H. now destruct (nth_error tab c).
Qed.

Lemma slot_out tab c : length tab <= c -> slot tab c = None.
Proof. intros H. unfold slot. apply nth_error_None in H. now rewrite H. Qed.

Lemma cur_in_lt g tab : forall c e, cur_in g tab c = Some e -> ~ In c (map fst g) -> c < length tab.
Proof.
  induction g as [|[c1 n1] r IH]; intros c e H Hni; cbn in *; [now apply slot_some_lt in H|].
  destruct (Nat.eqb_spec c c1) as [->|]; [tauto|]. eapply IH; eauto.
Qed.

Lemma put_in_fst g tab c e : map fst (fst (put_in g tab c e)) = map fst g.
Proof.
  induction g as [|[c1 n1] r IH]; cbn; [reflexivity|]. destruct (Nat.eqb c c1); cbn; now rewrite ?IH.
Qed.

Lemma put_in_length g tab c e : length (snd (put_in g tab c e)) = length tab.
Proof.
  induction g as [|[c1 n1] r IH]; cbn; [apply set_nth_length|]. now destruct (Nat.eqb c c1).
Qed.

Lemma cur_put g tab c e c' : forall e0,
  cur_in g tab c = Some e0 ->
  cur_in (fst (put_in g tab c e)) (snd (put_in g tab c e)) c' = if Nat.eqb c' c then Some e else cur_in g tab c'.
Proof.
  induction g as [|[c1 n1] r IH]; intros e0 H; cbn in *; [apply slot_set_nth; now apply slot_some_lt in H|].
  destruct (Nat.eqb_spec c c1) as [->|Hc]; cbn; [now destruct (Nat.eqb c' c1)|].
  destruct (Nat.eqb_spec c' c1) as [->|]; [|eauto]. destruct (Nat.eqb_spec c1 c); congruence.
Qed.

Lemma borrowed_false_notin w c : borrowed w c = false -> ~ In c (map fst (w_guards w)).
Proof.
  unfold borrowed. intros H Hin. rewrite (proj2 (existsb_exists _ _)) in H; [discriminate|].
  exists c. split; [exact Hin|apply Nat.eqb_refl].
Qed.

Lemma cur_set_nth g tab dst x : forall c',
  ~ In dst (map fst g) -> dst < length tab ->
  cur_in g (set_nth tab dst x) c' = if Nat.eqb c' dst then x else cur_in g tab c'.
Proof.
  induction g as [|[c1 n1] r IH]; intros c' Hni Hlt; cbn in *; [now apply slot_set_nth|].
  destruct (Nat.eqb_spec c' c1) as [->|]; [|apply IH; tauto].
  destruct (Nat.eqb_spec c1 dst); [tauto|reflexivity].
Qed.

Lemma cur_not_borrowed g tab c : ~ In c (map fst g) -> cur_in g tab c = slot tab c.
Proof.
  induction g as [|[c1 n1] r IH]; intros Hni; cbn in *; [reflexivity|].
  destruct (Nat.eqb_spec c c1); [destruct Hni; now left|apply IH; tauto].
Qed.

(* every guard sits on a context of the same scheme *)
Fixpoint guards_wf (g : list (nat * ectx)) (tab : list (option ectx)) : Prop :=
  match g with
  | [] => True
  | (c, n) :: r => (exists e, cur_in r tab c = Some e /\ ec_tok e = ec_tok n) /\ guards_wf r tab
  end.

Lemma guards_wf_put g tab c e' : forall e,
  guards_wf g tab -> cur_in g tab c = Some e -> ec_tok e' = ec_tok e ->
  guards_wf (fst (put_in g tab c e')) (snd (put_in g tab c e')).
Proof.
  induction g as [|[c1 n1] r IH]; intros e Hwf Hcur Htok; cbn in *; [exact I|].
  destruct Hwf as [(e1 & He1 & Ht1) Hwf]. destruct (Nat.eqb_spec c c1) as [->|Hc]; cbn.
  - split; [|exact Hwf]. exists e1. split; [exact He1|]. injection Hcur as <-. congruence.
  - split; [|eauto]. exists e1. split; [|exact Ht1]. rewrite (cur_put _ _ _ _ _ _ Hcur).
    now destruct (Nat.eqb_spec c1 c); [congruence|].
Qed.

Lemma guards_wf_set_nth g tab dst x :
  ~ In dst (map fst g) -> dst < length tab -> guards_wf g tab -> guards_wf g (set_nth tab dst x).
Proof.
  induction g as [|[c1 n1] r IH]; intros Hni Hlt Hwf; cbn in *; [exact I|].
  destruct Hwf as [(e1 & He1 & Ht1) Hwf]. split; [|apply IH; tauto].
  exists e1. split; [|exact Ht1]. rewrite cur_set_nth by tauto. now destruct (Nat.eqb_spec c1 dst); [tauto|].
Qed.

Record inv (cf : config) (w : world) : Prop := {
  inv_len : length (w_ctxs w) = length (cf_init cf);
  inv_guards : guards_wf (w_guards w) (w_ctxs w);
  inv_vals : forall c e, cur w c = Some e -> length (ec_vals e) = length (cf_fields cf);
}.

(* The four ways a step changes the world, by what they do to the contexts
   the program can name.  Each keeps [shape], the part of the invariant that
   does not speak about the stored values. *)
Definition shape (cf : config) (w : world) : Prop :=
  length (w_ctxs w) = length (cf_init cf) /\ guards_wf (w_guards w) (w_ctxs w).

(* (A) a write through the name "slot c" that keeps the scheme *)
Lemma put_effect cf w c e e0 :
  shape cf w -> cur w c = Some e0 -> ec_tok e = ec_tok e0 ->
  shape cf (put w c e) /\
  map fst (w_guards (put w c e)) = map fst (w_guards w) /\
  forall c', cur (put w c e) c' = if Nat.eqb c' c then Some e else cur w c'.
Proof.
  intros [Hlen Hwf] Hcur Htok. unfold shape, put, cur in *. cbn.
  rewrite put_in_length, put_in_fst. repeat split; eauto using guards_wf_put, cur_put.
Qed.

(* (B) an assignment to a slot of the table that is not borrowed *)
Definition tab_write (w : world) (dst : nat) (x : option ectx) : world :=
  {| w_ctxs := set_nth (w_ctxs w) dst x; w_guards := w_guards w |}.

Lemma tab_write_effect cf w dst x :
  shape cf w -> borrowed w dst = false -> dst < length (w_ctxs w) ->
  shape cf (tab_write w dst x) /\
  forall c', cur (tab_write w dst x) c' = if Nat.eqb c' dst then x else cur w c'.
Proof.
  intros [Hlen Hwf] Hb Hlt. apply borrowed_false_notin in Hb. unfold shape, tab_write, cur. cbn.
  rewrite set_nth_length. repeat split; auto using guards_wf_set_nth, cur_set_nth.
Qed.

Lemma inv_shape cf w : inv cf w -> shape cf w.
Proof. intros H. split; apply H. Qed.

Lemma ltb_lt_true a b : Nat.ltb a b = true -> a < b.
Proof. apply Nat.ltb_lt. Qed.

Lemma ectx_eta e : {| ec_tok := ec_tok e; ec_vals := ec_vals e |} = e.
Proof. now destruct e. Qed.

(* (C) OBorrowBegin *)
Definition push_guard (w : world) (c : nat) (e : ectx) : world :=
  let w1 := put w c {| ec_tok := ec_tok e; ec_vals := [] |} in
  {| w_ctxs := w_ctxs w1; w_guards := (c, {| ec_tok := ec_tok e; ec_vals := ec_vals e |}) :: w_guards w1 |}.

Lemma push_guard_effect cf w c e :
  shape cf w -> cur w c = Some e ->
  shape cf (push_guard w c e) /\
  map fst (w_guards (push_guard w c e)) = c :: map fst (w_guards w) /\
  (forall c', cur (push_guard w c e) c' = cur w c') /\
  (* the borrowed context itself holds no value while the guard lives *)
  cur_in (tl (w_guards (push_guard w c e))) (w_ctxs (push_guard w c e)) c = Some {| ec_tok := ec_tok e; ec_vals := [] |}.
Proof.
  intros Hs Hcur.
  destruct (put_effect cf w c {| ec_tok := ec_tok e; ec_vals := [] |} e Hs Hcur eq_refl) as ([Hlen Hwf] & Hfst & Hc).
  assert (Hbelow : cur (put w c {| ec_tok := ec_tok e; ec_vals := [] |}) c = Some {| ec_tok := ec_tok e; ec_vals := [] |}).
  { now rewrite Hc, Nat.eqb_refl. }
  unfold push_guard, shape. cbn [w_guards w_ctxs guards_wf map fst tl]. repeat split; eauto; [now rewrite Hfst|].
  intros c'. unfold cur at 1. cbn [w_guards w_ctxs cur_in]. fold (cur (put w c {| ec_tok := ec_tok e; ec_vals := [] |}) c').
  rewrite Hc. destruct (Nat.eqb_spec c' c) as [->|]; [|reflexivity]. now rewrite Hcur, ectx_eta.
Qed.

(* (D) OBorrowEnd *)
Definition pop_guard (w : world) (c : nat) (n : ectx) (r : list (nat * ectx)) (old : ectx) : world :=
  put {| w_ctxs := w_ctxs w; w_guards := r |} c {| ec_tok := ec_tok old; ec_vals := ec_vals n |}.

Lemma pop_guard_effect cf w c n r :
  shape cf w -> w_guards w = (c, n) :: r ->
  exists old,
    cur {| w_ctxs := w_ctxs w; w_guards := r |} c = Some old /\
    shape cf (pop_guard w c n r old) /\
    map fst (w_guards (pop_guard w c n r old)) = map fst r /\
    (forall c', cur (pop_guard w c n r old) c' = cur w c').
Proof.
  intros [Hlen Hwf] Hg. rewrite Hg in Hwf. destruct Hwf as [(old & Hold & Htok) Hwf].
  exists old. split; [exact Hold|].
  destruct (put_effect cf {| w_ctxs := w_ctxs w; w_guards := r |} c {| ec_tok := ec_tok old; ec_vals := ec_vals n |} old
              (conj Hlen Hwf) Hold eq_refl) as (Hs & Hfst & Hc).
  repeat split; try assumption; try apply Hs. intros c'. unfold pop_guard. rewrite Hc.
  unfold cur at 2. rewrite Hg. cbn [cur_in]. destruct (Nat.eqb c' c); [|reflexivity]. now rewrite Htok, ectx_eta.
Qed.

Definition op_value (o : op) : option value :=
  match o with OSetByField _ _ _ v | OSetByName _ _ v => Some v | _ => None end.

Definition writes (o : op) (c : nat) : bool :=
  match o with
  | ONew d _ | OCloneWith _ d => Nat.eqb c d
  | OSetByField c' _ _ _ | OSetByName c' _ _ | OClear c' => Nat.eqb c c'
  | OTakeWith s d => Nat.eqb c s || Nat.eqb c d
  | _ => false
  end.

(* where the content of a visible context comes from after a step *)
Inductive made (cf : config) (w : world) (o : op) (e' : ectx) : Prop :=
| MStore c e f fd v :
    cur w c = Some e -> nth_error (cf_fields cf) f = Some fd ->
    ty_eqb (fd_ty fd) (type_of v) = true -> op_value o = Some v ->
    e' = {| ec_tok := ec_tok e; ec_vals := set_nth (ec_vals e) f (Some v) |} -> made cf w o e'
| MClear c e :
    cur w c = Some e -> e' = {| ec_tok := ec_tok e; ec_vals := map (fun _ => None) (ec_vals e) |} ->
    made cf w o e'
| MNew tok : e' = ctx_new cf tok -> made cf w o e'
| MCopy src : cur w src = Some e' -> made cf w o e'.

(* a view of the contexts after the step: unchanged outside the targets, and
   what it shows was made in one of the four ways *)
Definition view_ok (cf : config) (w : world) (o : op) (v : nat -> option ectx) : Prop :=
  forall c, (writes o c = false -> v c = cur w c) /\ (forall e', v c = Some e' -> made cf w o e').

Lemma view_ok_upd cf w o v v' d x :
  (forall c, v' c = upd v d x c) -> view_ok cf w o v -> writes o d = true ->
  (forall e', x = Some e' -> made cf w o e') -> view_ok cf w o v'.
Proof.
  intros Hv' Hv Hd Hx c. rewrite Hv'. unfold upd. destruct (Nat.eqb_spec c d) as [->|]; [|apply Hv].
  split; [congruence|exact Hx].
Qed.

(* What a step may lead to: a world of the right shape whose visible contexts
   are accounted for.  A step is a sequence of at most two writes from [w]. *)
Definition next_ok (cf : config) (w : world) (o : op) (w' : world) : Prop :=
  shape cf w' /\ view_ok cf w o (cur w').

Lemma next_same cf w o w' : shape cf w' -> (forall c, cur w' c = cur w c) -> next_ok cf w o w'.
Proof. intros Hs Hc. split; [exact Hs|]. intros c. rewrite Hc. split; [reflexivity|intros e'; apply MCopy]. Qed.

Lemma next_put cf w o w1 c e e' :
  next_ok cf w o w1 -> cur w1 c = Some e -> ec_tok e' = ec_tok e -> writes o c = true -> made cf w o e' ->
  next_ok cf w o (put w1 c e').
Proof.
  intros [Hs Hv] Hc Ht Hw Hm. destruct (put_effect cf w1 c e' e Hs Hc Ht) as (Hs' & _ & Hcur).
  split; [exact Hs'|]. apply (view_ok_upd _ _ _ _ _ _ _ Hcur Hv Hw). now intros ? [= <-].
Qed.

Lemma next_tab cf w o w1 dst x :
  next_ok cf w o w1 -> borrowed w1 dst = false -> dst < length (w_ctxs w1) -> writes o dst = true ->
  (forall e', x = Some e' -> made cf w o e') -> next_ok cf w o (tab_write w1 dst x).
Proof.
  intros [Hs Hv] Hb Hlt Hw Hm. destruct (tab_write_effect cf w1 dst x Hs Hb Hlt) as [Hs' Hcur].
  split; [exact Hs'|]. exact (view_ok_upd _ _ _ _ _ _ _ Hcur Hv Hw Hm).
Qed.

Lemma next_set_checked cf w o c e f fd v :
  shape cf w -> cur w c = Some e -> nth_error (cf_fields cf) f = Some fd ->
  op_value o = Some v -> writes o c = true ->
  next_ok cf w o (fst (set_checked w c e f (fd_ty fd) v)).
Proof.
  intros Hs Hc Hfd Hv Hw. assert (Hsame : next_ok cf w o w) by now apply next_same. unfold set_checked.
  destruct (ty_eqb (fd_ty fd) (type_of v)) eqn:Hty; [|exact Hsame].
  destruct (nth_error (ec_vals e) f); [|exact Hsame].
  apply (next_put cf w o w c e); auto. eapply MStore; eauto.
Qed.

Lemma step_next cf w o : shape cf w -> next_ok cf w o (fst (step cf w o)).
Proof.
  intros Hs. assert (Hsame : next_ok cf w o w) by now apply next_same.
  destruct o as [dst h|c h f v|c name v|c h f|c|src dst|src dst|c| |c h]; cbn [step].
  - destruct (nth_error (cf_idents cf) h) as [tok|]; [|exact Hsame].
    destruct (Nat.ltb_spec dst (length (w_ctxs w))) as [Hlt|]; [|exact Hsame].
    destruct (borrowed w dst) eqn:Hb; [exact Hsame|].
    apply (next_tab cf w _ w dst (Some (ctx_new cf tok)) Hsame Hb Hlt (Nat.eqb_refl _)).
    intros e' [= <-]. now apply MNew with tok.
  - destruct (nth_error (cf_idents cf) h) as [tok|]; [|exact Hsame].
    destruct (nth_error (cf_fields cf) f) as [fd|] eqn:Hf; [|exact Hsame].
    destruct (cur w c) as [e|] eqn:Hc; [|exact Hsame].
    destruct (Nat.eqb (ec_tok e) tok); [|exact Hsame]. apply next_set_checked; auto. apply Nat.eqb_refl.
  - destruct (cur w c) as [e|] eqn:Hc; [|exact Hsame].
    destruct (find_field name (cf_fields cf) 0) as [f|]; [|exact Hsame].
    destruct (nth_error (cf_fields cf) f) as [fd|] eqn:Hf; [|exact Hsame]. apply next_set_checked; auto. apply Nat.eqb_refl.
  - destruct (nth_error (cf_idents cf) h) as [tok|]; [|exact Hsame].
    destruct (nth_error (cf_fields cf) f); [|exact Hsame].
    destruct (cur w c) as [e|]; [|exact Hsame].
    destruct (Nat.eqb (ec_tok e) tok); [|exact Hsame]. destruct (nth_error (ec_vals e) f); exact Hsame.
  - destruct (cur w c) as [e|] eqn:Hc; [|exact Hsame].
    apply (next_put cf w _ w c e); auto; [apply Nat.eqb_refl|eapply MClear; eauto].
  - destruct (cur w src) as [e|] eqn:Hc; [|exact Hsame].
    destruct (Nat.ltb_spec dst (length (w_ctxs w))) as [Hlt|]; [|exact Hsame].
    destruct (borrowed w dst) eqn:Hb; [exact Hsame|].
    apply (next_tab cf w _ w dst (Some _) Hsame Hb Hlt (Nat.eqb_refl _)).
    intros e' [= <-]. apply MCopy with src. now rewrite ectx_eta.
  - destruct (borrowed w src) eqn:Hbs; [exact Hsame|].
    destruct (slot (w_ctxs w) src) as [e|] eqn:Hsl; [|exact Hsame].
    destruct (Nat.ltb_spec dst (length (w_ctxs w))) as [Hlt|]; [|exact Hsame].
    destruct (borrowed w dst) eqn:Hb; [exact Hsame|].
    (* the source is moved out, then the destination assigned *)
    assert (H1 : next_ok cf w (OTakeWith src dst) (tab_write w src None)).
    { apply next_tab; auto; [now apply slot_some_lt in Hsl|cbn; now rewrite Nat.eqb_refl|discriminate]. }
    apply (next_tab cf w _ _ dst (Some e) H1 Hb).
    + cbn. now rewrite set_nth_length.
    + cbn. now rewrite Nat.eqb_refl, orb_true_r.
    + intros e' [= <-]. apply MCopy with src. unfold cur. rewrite cur_not_borrowed; [exact Hsl|].
      now apply borrowed_false_notin.
  - destruct (cur w c) as [e|] eqn:Hc; [|exact Hsame].
    destruct (push_guard_effect cf w c e Hs Hc) as (Hs' & _ & Hcur & _). now apply next_same.
  - destruct (w_guards w) as [|[c n] r] eqn:Hg; [exact Hsame|].
    destruct (pop_guard_effect cf w c n r Hs Hg) as (old & -> & Hs' & _ & Hcur). now apply next_same.
  - destruct (nth_error (cf_idents cf) h) as [tok|]; [|exact Hsame].
    destruct (cur w c) as [e|]; [|exact Hsame]. destruct (Nat.eqb (ec_tok e) tok); exact Hsame.
Qed.

Lemma made_length cf w o e' : inv cf w -> made cf w o e' -> length (ec_vals e') = length (cf_fields cf).
Proof.
  intros Hinv [? e ? ? ? He _ _ _ ->|? e He ->|? ->|? He]; cbn;
    rewrite ?set_nth_length, ?map_length, ?repeat_length; eauto using inv_vals.
Qed.

Lemma step_view cf w o : inv cf w ->
  inv cf (fst (step cf w o)) /\ view_ok cf w o (cur (fst (step cf w o))).
Proof.
  intros Hinv. destruct (step_next cf w o (inv_shape _ _ Hinv)) as [[Hl Hg] Hv]. split; [|exact Hv].
  constructor; auto. intros c e' Hc. exact (made_length cf w o e' Hinv (proj2 (Hv c) e' Hc)).
Qed.

Lemma init_cur cf c :
  cur (init cf) c = match nth_error (cf_init cf) c with
                    | Some (Some h) => option_map (ctx_new cf) (nth_error (cf_idents cf) h)
                    | _ => None
                    end.
Proof.
  unfold cur, init. cbn. unfold slot. rewrite nth_error_map. now destruct (nth_error (cf_init cf) c) as [[h|]|].
Qed.

Lemma init_cur_new cf c e : cur (init cf) c = Some e -> exists tok, e = ctx_new cf tok.
Proof.
  rewrite init_cur. destruct (nth_error (cf_init cf) c) as [[h|]|]; try discriminate.
  destruct (nth_error (cf_idents cf) h); [|discriminate]. intros [= <-]. eauto.
Qed.

Lemma inv_init cf : inv cf (init cf).
Proof. constructor; [apply map_length|exact I|]. intros c e (tok & ->)%init_cur_new. apply repeat_length. Qed.

Lemma inv_step cf w o : inv cf w -> inv cf (fst (step cf w o)).
Proof. intros H. apply step_view, H. Qed.

Lemma inv_run cf ops : forall w, inv cf w -> inv cf (fst (run_from cf w ops)).
Proof. induction ops as [|o r IH]; intros w H; [exact H|]. apply IH, inv_step, H. Qed.

(* what every admitted step keeps from a state of the invariant, a run keeps *)
Lemma run_from_inv cf (I : world -> Prop) (ok : op -> bool) :
  (forall w o, inv cf w -> I w -> ok o = true -> I (fst (step cf w o))) ->
  forall ops w, inv cf w -> I w -> forallb ok ops = true -> I (fst (run_from cf w ops)).
Proof.
  intros Hstep. induction ops as [|o r IH]; intros w Hinv H Hok; [exact H|]. apply andb_prop in Hok as [Ho Hr].
  apply IH; auto using inv_step.
Qed.

Definition stored_ok (fds : list field_def) (vals : list (option value)) : Prop :=
  forall f v, nth_error vals f = Some (Some v) ->
              exists fd, nth_error fds f = Some fd /\ has_type v (fd_ty fd) = true.

Definition typed (cf : config) (w : world) : Prop :=
  forall c e, cur w c = Some e -> stored_ok (cf_fields cf) (ec_vals e).

Lemma stored_ok_none n fds : stored_ok fds (repeat None n).
Proof. intros f v H. apply nth_error_In, repeat_spec in H. discriminate. Qed.

Lemma stored_ok_cleared fds (vals : list (option value)) : stored_ok fds (map (fun _ => None) vals).
Proof. intros f v H. rewrite nth_error_map in H. now destruct (nth_error vals f). Qed.

Lemma stored_ok_set fds vals f fd v :
  stored_ok fds vals -> nth_error fds f = Some fd -> has_type v (fd_ty fd) = true ->
  stored_ok fds (set_nth vals f (Some v)).
Proof.
  intros Hok Hfd Hty f' v' H. rewrite nth_error_set_nth in H.
  destruct (Nat.eqb_spec f' f) as [->|]; [|now apply Hok]. destruct (nth_error vals f); [|discriminate].
  injection H as <-. now exists fd.
Qed.

Lemma typed_init cf : typed cf (init cf).
Proof. intros c e (tok & ->)%init_cur_new. apply stored_ok_none. Qed.

Lemma typed_step cf w o :
  inv cf w -> typed cf w -> op_wf o = true -> typed cf (fst (step cf w o)).
Proof.
  intros Hinv Hty Hwf c e' Hc.
  destruct (proj2 (proj2 (step_view cf w o Hinv) c) e' Hc) as [? e f fd v He Hfd Hteq Hv ->|? e He ->|tok ->|src Hs]; cbn;
    eauto using stored_ok_cleared, stored_ok_none.
  eapply stored_ok_set; [exact (Hty _ _ He)|exact Hfd|]. unfold has_type. rewrite ty_eqb_sym, Hteq.
  destruct o; try discriminate; injection Hv as <-; exact Hwf.
Qed.

Lemma typed_run cf ops : forall w,
  inv cf w -> typed cf w -> forallb op_wf ops = true -> typed cf (fst (run_from cf w ops)).
Proof. exact (run_from_inv cf (typed cf) op_wf (typed_step cf) ops). Qed.

(* [stored_ok] is the [slots_ok] of Spec/Typing.v without its two other
   clauses: one slot per field, and mandatory fields are set. *)
Lemma slots_ok_of_stored : forall fds vals,
  length vals = length fds -> stored_ok fds vals ->
  (forall f fd, nth_error fds f = Some fd -> nth_error vals f = Some None -> fd_optional fd = true) ->
  slots_ok fds vals = true.
Proof.
  induction fds as [|fd fds IH]; intros [|o vals] Hlen Hok Hopt; try discriminate; [reflexivity|].
  cbn [slots_ok]. apply andb_true_intro. split.
  - destruct o as [v|]; cbn; [|now apply (Hopt 0 fd)]. now destruct (Hok 0 v eq_refl) as (? & [= <-] & Hty).
  - apply IH; [now injection Hlen|intros f v Hn; apply (Hok (S f) v Hn)|intros f; apply (Hopt (S f))].
Qed.

Lemma stored_of_slots_ok : forall fds vals, slots_ok fds vals = true -> stored_ok fds vals.
Proof.
  induction fds as [|fd fds IH]; intros [|o vals] H [|f] v Hn; try discriminate;
    cbn in H; apply andb_prop in H as [Hs Hr]; cbn in Hn.
  - injection Hn as ->. now exists fd.
  - exact (IH vals Hr f v Hn).
Qed.

Definition rel_ctx (cf : config) (oe : option ectx) (ox : option actx) : Prop :=
  match oe, ox with
  | Some e, Some x =>
      ec_tok e = ac_scheme x /\
      forall f, f < length (cf_fields cf) -> nth_error (ec_vals e) f = Some (ac_map x f)
  | None, None => True
  | _, _ => False
  end.

(* The simulation does not need to know how long the value vectors are:
   [rel_ctx] says what every field index holds. *)
Record sim (cf : config) (w : world) (a : astate) : Prop := {
  sim_shape : shape cf w;
  sim_borrowed : map fst (w_guards w) = a_borrowed a;
  sim_ctx : forall c, rel_ctx cf (cur w c) (a_ctx a c);
}.

Lemma sim_is_borrowed cf w a c : sim cf w a -> borrowed w c = is_borrowed a c.
Proof. intros H. unfold borrowed, is_borrowed. now rewrite (sim_borrowed _ _ _ H). Qed.

Lemma find_field_seq name : forall fds pre,
  find_field name fds (length pre) =
  find (fun i => match nth_error (pre ++ fds) i with Some fd => bytes_eqb name (fd_name fd) | None => false end)
       (seq (length pre) (length fds)).
Proof.
  induction fds as [|fd r IH]; intros pre; cbn [find_field length seq find]; [reflexivity|].
  rewrite nth_error_app_new.
  destruct (bytes_eqb name (fd_name fd)); [reflexivity|].
  specialize (IH (pre ++ [fd])). rewrite app_length, Nat.add_1_r, <- app_assoc in IH. exact IH.
Qed.

Lemma find_field_called fds name : find_field name fds 0 = field_called fds name.
Proof. exact (find_field_seq name fds []). Qed.

Lemma rel_len cf e x : rel_ctx cf (Some e) (Some x) -> length (cf_fields cf) <= length (ec_vals e).
Proof.
  intros [_ H]. destruct (Nat.le_gt_cases (length (cf_fields cf)) (length (ec_vals e))) as [Hle|Hgt]; [exact Hle|].
  specialize (H _ Hgt). now rewrite (proj2 (nth_error_None _ _) (Nat.le_refl _)) in H.
Qed.

Lemma sim_upd cf w a w' c oe ox bs :
  sim cf w a -> shape cf w' -> map fst (w_guards w') = bs ->
  (forall c', cur w' c' = upd (cur w) c oe c') -> rel_ctx cf oe ox ->
  sim cf w' {| a_ctx := upd (a_ctx a) c ox; a_borrowed := bs |}.
Proof.
  intros Hs Hs' Hb Hcur Hrel. constructor; [exact Hs'|exact Hb|]. cbn [a_ctx]. intros c'. rewrite Hcur. unfold upd.
  destruct (Nat.eqb c' c); [exact Hrel|apply (sim_ctx _ _ _ Hs)].
Qed.

Lemma sim_put cf w a c e e' x' :
  sim cf w a -> cur w c = Some e -> ec_tok e' = ec_tok e -> rel_ctx cf (Some e') (Some x') ->
  sim cf (put w c e') (a_set_ctx a c (Some x')).
Proof.
  intros Hs Hc Htok Hrel.
  destruct (put_effect cf w c e' e (sim_shape _ _ _ Hs) Hc Htok) as (Hs' & Hfst & Hcur).
  eapply sim_upd; eauto. rewrite Hfst. apply (sim_borrowed _ _ _ Hs).
Qed.

Lemma sim_tab cf w a dst oe ox :
  sim cf w a -> borrowed w dst = false -> dst < length (w_ctxs w) -> rel_ctx cf oe ox ->
  sim cf (tab_write w dst oe) (a_set_ctx a dst ox).
Proof.
  intros Hs Hb Hlt Hrel.
  destruct (tab_write_effect cf w dst oe (sim_shape _ _ _ Hs) Hb Hlt) as [Hs' Hcur].
  eapply sim_upd; eauto. apply (sim_borrowed _ _ _ Hs).
Qed.

Lemma rel_new cf tok : rel_ctx cf (Some (ctx_new cf tok)) (Some {| ac_scheme := tok; ac_map := empty_map |}).
Proof. split; [reflexivity|]. intros f Hf. now apply nth_error_repeat. Qed.

Lemma sim_init cf : sim cf (init cf) (a_init cf).
Proof.
  constructor; [apply inv_shape, inv_init|reflexivity|]. intros c. rewrite init_cur. cbn.
  destruct (nth_error (cf_init cf) c) as [[h|]|]; try exact I.
  destruct (nth_error (cf_idents cf) h) as [tok|]; [apply rel_new|exact I].
Qed.

(* borrowing and dropping a guard change no visible context *)
Lemma sim_same_view cf w a w' bs :
  sim cf w a -> shape cf w' -> map fst (w_guards w') = bs -> (forall c, cur w' c = cur w c) ->
  sim cf w' {| a_ctx := a_ctx a; a_borrowed := bs |}.
Proof.
  intros Hs Hs' Hb Hcur. constructor; [exact Hs'|exact Hb|]. intros c. rewrite Hcur. apply (sim_ctx _ _ _ Hs).
Qed.

(* both sides of a step, when nothing happens *)
Lemma sim_stay cf w a (ob : obs) : sim cf w a -> sim cf (fst (w, ob)) (fst (a, ob)) /\ snd (w, ob) = snd (a, ob).
Proof. now split. Qed.

(* the slot checks of new / clone_with / take_with, then the assignment;
   a refused one leaves [w0] (for take_with the source has been moved out of [w]) *)
Lemma sim_assign cf w0 a0 w a dst oe ox :
  sim cf w0 a0 -> sim cf w a -> rel_ctx cf oe ox ->
  let p := if Nat.ltb dst (length (w_ctxs w))
           then if borrowed w dst then (w0, ObBusy) else (tab_write w dst oe, ObOk)
           else (w0, ObBadArg) in
  let q := if negb (is_slot cf dst) then (a0, ObBadArg)
           else if is_borrowed a dst then (a0, ObBusy) else (a_set_ctx a dst ox, ObOk) in
  sim cf (fst p) (fst q) /\ snd p = snd q.
Proof.
  intros Hs0 Hs Hrel. cbv zeta.
  unfold is_slot. rewrite <- (proj1 (sim_shape _ _ _ Hs)), <- (sim_is_borrowed cf w a dst Hs).
  destruct (Nat.ltb_spec dst (length (w_ctxs w))) as [Hlt|]; [|now apply sim_stay].
  destruct (borrowed w dst) eqn:Hb; [now apply sim_stay|].
  split; [|reflexivity]. now apply sim_tab.
Qed.

Lemma store_sim cf w a c e x f fd v :
  sim cf w a -> cur w c = Some e -> a_ctx a c = Some x -> nth_error (cf_fields cf) f = Some fd ->
  value_wf v = true ->
  sim cf (fst (set_checked w c e f (fd_ty fd) v)) (fst (a_store a c x f (fd_ty fd) v)) /\
  snd (set_checked w c e f (fd_ty fd) v) = snd (a_store a c x f (fd_ty fd) v).
Proof.
  intros Hs Hc Hx Hfd Hwf.
  pose proof (sim_ctx _ _ _ Hs c) as Hrel. rewrite Hc, Hx in Hrel. destruct Hrel as [Htok Hvals].
  assert (Hf : f < length (cf_fields cf)) by (apply nth_error_Some; congruence).
  unfold set_checked, a_store, has_type. rewrite (ty_eqb_sym (type_of v)), Hwf, andb_true_r.
  destruct (ty_eqb (fd_ty fd) (type_of v)); [|now apply sim_stay].
  rewrite (Hvals f Hf). split; [|reflexivity].
  apply (sim_put cf w a c e); auto. split; [exact Htok|]. cbn. intros f' Hf'.
  rewrite nth_error_set_nth, (Hvals f Hf). unfold upd. destruct (Nat.eqb f' f); [reflexivity|now apply Hvals].
Qed.

(* the visible context of slot [c] on both sides; without one the step does nothing *)
Ltac rel_at Hs c e x Hc Hx Hrel :=
  pose proof (sim_ctx _ _ _ Hs c) as Hrel; unfold rel_ctx in Hrel;
  destruct (cur _ c) as [e|] eqn:Hc; destruct (a_ctx _ c) as [x|] eqn:Hx; try contradiction;
  [|now apply sim_stay].

Lemma sim_step cf w a o :
  sim cf w a -> op_wf o = true ->
  sim cf (fst (step cf w o)) (fst (a_step cf a o)) /\ snd (step cf w o) = snd (a_step cf a o).
Proof.
  intros Hs Hwf. pose proof (sim_shape _ _ _ Hs) as Hsh.
  destruct o as [dst h|c h f v|c name v|c h f|c|src dst|src dst|c| |c h]; cbn [step a_step].
  - destruct (nth_error (cf_idents cf) h) as [tok|]; [|now apply sim_stay].
    apply (sim_assign cf w a w a dst (Some (ctx_new cf tok))); [exact Hs|exact Hs|apply rel_new].
  - destruct (nth_error (cf_idents cf) h) as [tok|]; [|now apply sim_stay].
    destruct (nth_error (cf_fields cf) f) as [fd|] eqn:Hfd; [|now apply sim_stay].
    rel_at Hs c e x Hc Hx Hrel.
    rewrite <- (proj1 Hrel), (Nat.eqb_sym tok).
    destruct (Nat.eqb (ec_tok e) tok); [|now apply sim_stay]. now apply store_sim.
  - rel_at Hs c e x Hc Hx Hrel.
    rewrite find_field_called.
    destruct (field_called (cf_fields cf) name) as [f|]; [|now apply sim_stay].
    destruct (nth_error (cf_fields cf) f) as [fd|] eqn:Hfd; [|now apply sim_stay]. now apply store_sim.
  - destruct (nth_error (cf_idents cf) h) as [tok|]; [|now apply sim_stay].
    destruct (nth_error (cf_fields cf) f) as [fd|] eqn:Hfd; [|now apply sim_stay].
    rel_at Hs c e x Hc Hx Hrel.
    destruct Hrel as [Htok Hvals]. rewrite <- Htok, (Nat.eqb_sym tok).
    destruct (Nat.eqb (ec_tok e) tok); [|now apply sim_stay].
    rewrite (Hvals f) by (apply nth_error_Some; congruence). now apply sim_stay.
  - rel_at Hs c e x Hc Hx Hrel.
    destruct Hrel as [Htok Hvals]. split; [|reflexivity].
    apply (sim_put cf w a c e); auto. split; [exact Htok|]. cbn. intros f Hf. now rewrite nth_error_map, (Hvals f Hf).
  - rel_at Hs src e x Hc Hx Hrel.
    apply (sim_assign cf w a w a dst (Some {| ec_tok := ec_tok e; ec_vals := ec_vals e |}) (Some x)); auto.
  - rewrite <- (sim_is_borrowed cf w a src Hs).
    destruct (borrowed w src) eqn:Hbs; [now apply sim_stay|].
    rewrite <- (cur_not_borrowed (w_guards w) _ src (borrowed_false_notin _ _ Hbs)). fold (cur w src).
    rel_at Hs src e x Hc Hx Hrel.
    assert (Hs1 : sim cf (tab_write w src None) (a_set_ctx a src None)).
    { apply sim_tab; [exact Hs|exact Hbs| |exact I]. eapply cur_in_lt; [exact Hc|now apply borrowed_false_notin]. }
    rewrite <- (set_nth_length (w_ctxs w) src None).
    apply (sim_assign cf w a (tab_write w src None) (a_set_ctx a src None) dst (Some e) (Some x)); auto.
  - rel_at Hs c e x Hc Hx Hrel. split; [|reflexivity].
    destruct (push_guard_effect cf w c e Hsh Hc) as (Hs' & Hfst & Hcur & _).
    apply (sim_same_view cf w a (push_guard w c e)); auto. now rewrite Hfst, (sim_borrowed _ _ _ Hs).
  - pose proof (sim_borrowed _ _ _ Hs) as Hb.
    destruct (w_guards w) as [|[c n] r] eqn:Hg; destruct (a_borrowed a) as [|c0 r0]; try discriminate;
      [now apply sim_stay|].
    destruct (pop_guard_effect cf w c n r Hsh Hg) as (old & -> & Hs' & Hfst & Hcur). split; [|reflexivity].
    apply (sim_same_view cf w a (pop_guard w c n r old)); auto. rewrite Hfst. now injection Hb.
  - destruct (nth_error (cf_idents cf) h) as [tok|]; [|now apply sim_stay].
    rel_at Hs c e x Hc Hx Hrel.
    rewrite <- (proj1 Hrel), (Nat.eqb_sym tok). destruct (Nat.eqb (ec_tok e) tok); now apply sim_stay.
Qed.

Lemma sim_run cf ops : forall w a,
  sim cf w a -> forallb op_wf ops = true -> snd (run_from cf w ops) = a_run_from cf a ops.
Proof.
  induction ops as [|o r IH]; intros w a Hs Hwf; [reflexivity|]. apply andb_prop in Hwf as [Ho Hr].
  destruct (sim_step cf w a o Hs Ho) as [Hs' Hobs]. cbn. rewrite Hobs. f_equal. now apply IH.
Qed.

(* Every branch of [step] returns either the world it was given or an
   observation other than [ObErr]. *)
Theorem failed_set_changes_nothing : forall cf w o err,
  snd (step cf w o) = ObErr err -> fst (step cf w o) = w.
Proof.
  intros cf w o err. destruct o; cbn [step]; unfold set_checked;
    repeat match goal with |- context [match ?t with _ => _ end] => destruct t end;
    cbn [fst snd]; intros H; reflexivity || discriminate H.
Qed.

Lemma set_checked_prev cf w c e f fty v w1 old :
  shape cf w -> cur w c = Some e -> set_checked w c e f fty v = (w1, ObPrev old) ->
  nth_error (ec_vals e) f = Some old /\
  cur w1 c = Some {| ec_tok := ec_tok e; ec_vals := set_nth (ec_vals e) f (Some v) |}.
Proof.
  intros Hs Hc. unfold set_checked. destruct (ty_eqb fty (type_of v)); [|discriminate].
  destruct (nth_error (ec_vals e) f); [|discriminate]. intros [= <- <-]. split; [reflexivity|].
  destruct (put_effect cf w c {| ec_tok := ec_tok e; ec_vals := set_nth (ec_vals e) f (Some v) |} e Hs Hc eq_refl)
    as (_ & _ & Hcur).
  now rewrite Hcur, Nat.eqb_refl.
Qed.

Lemma run_frame cf c ops : forall w,
  inv cf w -> forallb (fun o => negb (writes o c)) ops = true -> cur (fst (run_from cf w ops)) c = cur w c.
Proof.
  intros w Hinv. apply (run_from_inv cf (fun w' => cur w' c = cur w c)); [|exact Hinv|reflexivity].
  intros w' o Hi <- Ho%negb_true_iff. now apply step_view.
Qed.

Lemma clone_with_ok cf w src dst w1 :
  shape cf w -> step cf w (OCloneWith src dst) = (w1, ObOk) ->
  exists e, cur w src = Some e /\ forall c, cur w1 c = if Nat.eqb c dst then Some e else cur w c.
Proof.
  intros Hs H. cbn [step] in H. destruct (cur w src) as [e|]; [|discriminate].
  destruct (Nat.ltb_spec dst (length (w_ctxs w))) as [Hlt|]; [|discriminate].
  destruct (borrowed w dst) eqn:Hb; [discriminate|]. injection H as <-. exists e. split; [reflexivity|].
  rewrite ectx_eta. apply (tab_write_effect cf w dst (Some e) Hs Hb Hlt).
Qed.

Lemma forallb_map {A B} (g : A -> B) p l : forallb p (map g l) = forallb (fun x => p (g x)) l.
Proof. induction l as [|x l IH]; cbn; congruence. Qed.

Lemma homogeneous_Forall t l : homogeneous t l = true <-> Forall (fun x => type_of x = t) l.
Proof.
  unfold homogeneous. rewrite forallb_forall, Forall_forall.
  split; intros H x Hx; specialize (H x Hx); now destruct (ty_eqb_spec (type_of x) t).
Qed.

Lemma array_new_spec t l : array_new t l = spec_array t l.
Proof. reflexivity. Qed.

Lemma array_new_iff t l v :
  array_new t l = Some v <-> (Forall (fun x => type_of x = t) l /\ v = VArray t l).
Proof.
  rewrite <- homogeneous_Forall. unfold array_new. fold (homogeneous t l).
  destruct (homogeneous t l); [|now split; [|intros []]]. split; [now intros [= <-]|now intros [_ ->]].
Qed.

Lemma array_new_wf t l v :
  array_new t l = Some v -> forallb value_wf l = true -> has_type v (TArray t) = true.
Proof.
  unfold array_new. destruct (forallb (fun x => ty_eqb (type_of x) t) l) eqn:Hh; [|discriminate].
  intros [= <-] Hwf. unfold has_type. cbn. rewrite ty_eqb_refl. cbn [andb]. rewrite forallb_forall in *.
  intros x Hx. now rewrite (Hh x Hx), (Hwf x Hx).
Qed.

(* Map::try_from_iter collects into the BTreeMap of ByteKeys *)
Lemma map_insert_bt k v : forall l, map_insert k v l = bt_insert k v l.
Proof. induction l as [|[k' v'] l IH]; [reflexivity|]. cbn. now rewrite IH. Qed.

Lemma map_of_pairs_bt kvs : map_of_pairs kvs = bt_of_list kvs.
Proof.
  rewrite <- (map_id kvs) at 2.
  exact (bt_add_fold (fun kv => kv) _ (fun m => m) (fun kv m => map_insert_bt (fst kv) (snd kv) m) kvs []).
Qed.

Lemma map_insert_ascending k v l : keys_ascending l = true -> keys_ascending (map_insert k v l) = true.
Proof. rewrite map_insert_bt, !keys_ascending_ssorted. apply bt_insert_ssorted. Qed.

Lemma map_of_pairs_ascending kvs : keys_ascending (map_of_pairs kvs) = true.
Proof. rewrite map_of_pairs_bt. now apply keys_ascending_ssorted, bt_add_ssorted. Qed.

Lemma last_for_fold q kvs : forall acc,
  last_for q kvs acc = fold_left (fun acc kv => if bytes_eqb q (fst kv) then Some (snd kv) else acc) kvs acc.
Proof. induction kvs as [|[k v] r IH]; intros acc; [reflexivity|]. apply IH. Qed.

Lemma map_of_pairs_is_map kvs : is_map_of kvs (map_of_pairs kvs).
Proof.
  split; [apply map_of_pairs_ascending|]. intros k. rewrite map_of_pairs_bt, last_for_fold. exact (assoc_bt_add k kvs []).
Qed.

Lemma map_new_iff t kvs v :
  map_new t kvs = Some v <->
  (Forall (fun kv => type_of (snd kv) = t) kvs /\ v = VMap t (map_of_pairs kvs)).
Proof.
  rewrite <- (Forall_map snd (fun x => type_of x = t)), <- homogeneous_Forall. unfold map_new, homogeneous.
  rewrite forallb_map. destruct (forallb _ kvs); [|now split; [|intros []]].
  split; [now intros [= <-]|now intros [_ ->]].
Qed.

Lemma map_new_wf t kvs v :
  map_new t kvs = Some v -> forallb (fun kv => value_wf (snd kv)) kvs = true -> has_type v (TMap t) = true.
Proof.
  unfold map_new. destruct (forallb (fun kv => ty_eqb (type_of (snd kv)) t) kvs) eqn:Hh; [|discriminate].
  intros [= <-] Hwf. unfold has_type. cbn. rewrite ty_eqb_refl, map_of_pairs_ascending, andb_true_r. cbn [andb].
  rewrite forallb_forall in *. intros kv Hkv. rewrite map_of_pairs_bt in Hkv. apply bt_add_In in Hkv as [Hkv|[]].
  now rewrite (Hh kv Hkv), (Hwf kv Hkv).
Qed.

Lemma is_map_of_unique kvs content : is_map_of kvs content -> content = map_of_pairs kvs.
Proof.
  intros [Hasc Hl]. apply ssorted_assoc_ext.
  - now apply keys_ascending_ssorted.
  - apply keys_ascending_ssorted, map_of_pairs_ascending.
  - intros q. rewrite Hl. symmetry. apply map_of_pairs_is_map.
Qed.

(* the full declarative reading of Map::try_from_iter *)
Lemma map_new_declarative t kvs v :
  map_new t kvs = Some v <->
  (Forall (fun kv => type_of (snd kv) = t) kvs /\ exists content, v = VMap t content /\ is_map_of kvs content).
Proof.
  rewrite map_new_iff. split; intros [Hf H]; (split; [exact Hf|]).
  - exists (map_of_pairs kvs). split; [exact H|apply map_of_pairs_is_map].
  - destruct H as (content & -> & Hm). f_equal. now apply is_map_of_unique.
Qed.

(* a list of keys as an association list, to speak of its order *)
Definition unit_keys (ks : list bytes) : list (bytes * unit) := map (fun k => (k, tt)) ks.

Lemma insert_key_bt k : forall l, unit_keys (insert_key k l) = bt_insert k tt (unit_keys l).
Proof.
  induction l as [|k1 r IH]; [reflexivity|]. unfold unit_keys in *. cbn [map insert_key bt_insert].
  destruct (bytes_compare k k1) eqn:Hc; cbn [map]; [now apply bytes_compare_eq in Hc as ->|reflexivity|now rewrite IH].
Qed.

Lemma sorted_keys_ssorted ks : ssorted (unit_keys (fold_right insert_key [] ks)).
Proof. induction ks as [|k r IH]; [exact I|]. cbn. rewrite insert_key_bt. now apply bt_insert_ssorted. Qed.

Lemma insert_key_incl k k' : forall l, k' = k \/ In k' l -> In k' (insert_key k l).
Proof.
  induction l as [|k1 r IH]; cbn; [intuition|].
  destruct (bytes_compare k k1) eqn:Hc; [apply bytes_compare_eq in Hc as ->| |]; cbn; intuition.
Qed.

Lemma sorted_keys_incl ks k : In k ks -> In k (fold_right insert_key [] ks).
Proof. induction ks as [|k1 r IH]; [easy|]. intros [->|H]; apply insert_key_incl; auto. Qed.

Definition key_entry (kvs : list (bytes * value)) (k : bytes) : list (bytes * value) :=
  match last_for k kvs None with Some v => [(k, v)] | None => [] end.

Lemma flat_entries_sorted kvs : forall ks, ssorted (unit_keys ks) -> ssorted (flat_map (key_entry kvs) ks).
Proof.
  induction ks as [|k r IH]; intros Hs; [exact I|]. destruct Hs as [Hlt Hr]. cbn [flat_map]. unfold key_entry at 1.
  destruct (last_for k kvs None) as [v|]; [|now apply IH]. split; [|now apply IH].
  apply Forall_forall. intros [k' v'] Hin. apply in_flat_map in Hin as (k2 & Hk2 & Hin).
  unfold key_entry in Hin. destruct (last_for k2 kvs None); [|easy]. destruct Hin as [[= -> ->]|[]].
  rewrite Forall_forall in Hlt. exact (Hlt (k', tt) (in_map _ _ _ Hk2)).
Qed.

Lemma flat_entries_assoc kvs q : forall ks,
  assoc_bytes q (flat_map (key_entry kvs) ks) = if existsb (bytes_eqb q) ks then last_for q kvs None else None.
Proof.
  induction ks as [|k r IH]; [reflexivity|]. cbn [flat_map existsb]. unfold key_entry at 1.
  destruct (last_for k kvs None) as [v|] eqn:Hl; cbn [app assoc_bytes]; rewrite IH;
    destruct (bytes_eqb_spec q k) as [->|]; cbn [orb]; try reflexivity; [easy|].
  rewrite Hl. now destruct (existsb _ r).
Qed.

Lemma last_for_absent q : forall kvs acc,
  ~ In q (map fst kvs) -> last_for q kvs acc = acc.
Proof.
  induction kvs as [|[k v] r IH]; intros acc H; [reflexivity|]. cbn in *.
  destruct (bytes_eqb_spec q k) as [->|]; [tauto|]. apply IH. tauto.
Qed.

Lemma map_new_spec t kvs : map_new t kvs = spec_map t kvs.
Proof.
  unfold map_new, spec_map, homogeneous. rewrite forallb_map.
  destruct (forallb _ kvs); [|reflexivity]. do 2 f_equal. fold (key_entry kvs). symmetry. apply is_map_of_unique. split.
  - apply keys_ascending_ssorted, flat_entries_sorted, sorted_keys_ssorted.
  - intros q. rewrite flat_entries_assoc.
    destruct (existsb (bytes_eqb q) (fold_right insert_key [] (map fst kvs))) eqn:He; [reflexivity|].
    symmetry. apply last_for_absent. intros Hin%sorted_keys_incl%existsb_In. congruence.
Qed.
